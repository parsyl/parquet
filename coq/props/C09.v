(** C09 — a failed write to the destination is always reported.
    Statements only; proofs in PQ.WriterProofs.  [run_history] is the sequence
    of sink writes of each API call (NewParquetWriter, every Add/Write, Close)
    in the writer model; [run_fault calls (Some k)] is the run in which the
    sink fails its k-th Write: which calls were made, which returned an error,
    what reached the sink.  That the real code's sink-write sequence and error
    propagation are the model's is checked for every k by bin/check C09. *)
From Coq Require Import List NArith ZArith.
From PQ Require Import Bytes Schema Writer WriterProofs.
Import ListNotations.

(** For every workload and every index k of a sink write that exists: exactly
    one API call reports an error, it is the call during which the k-th sink
    write happens, every earlier call succeeded, the run stops there, and the
    sink holds exactly the fault-free prefix. *)
Theorem C09_fault_reported_by_the_right_call : forall calls k,
  (k < length (concat calls))%nat ->
  exists i, (i < length calls)%nat /\
    fst (run_fault calls (Some k)) = repeat false i ++ [true] /\
    (length (concat (firstn i calls)) <= k < length (concat (firstn (S i) calls)))%nat /\
    snd (run_fault calls (Some k)) = firstn k (concat calls).
Proof. exact run_fault_hit. Qed.
Print Assumptions C09_fault_reported_by_the_right_call.

Theorem C09_sink_fault_reported : forall compress cfg h k,
  (k < length (concat (run_history compress cfg h)))%nat ->
  In true (fst (run_fault (run_history compress cfg h) (Some k))).
Proof. exact sink_fault_reported. Qed.
Print Assumptions C09_sink_fault_reported.

Theorem C09_fault_beyond_is_fault_free : forall calls k,
  (length (concat calls) <= k)%nat -> run_fault calls (Some k) = run_fault calls None.
Proof. exact run_fault_beyond. Qed.
Print Assumptions C09_fault_beyond_is_fault_free.

Theorem C09_fault_free : forall calls,
  run_fault calls None = (map (fun _ => false) calls, concat calls).
Proof. exact run_fault_none. Qed.
