(** C13 — output depends only on an instance's own history; instances do not
    interfere.  Statements only; proofs in PQ.PoolProofs.  What a sequential
    executable model can carry: (1) the process-wide buffer pools are scratch —
    whatever stale bytes a pooled buffer holds, the page bytes are the same;
    (2) for state machines whose only shared state is such a scratch pool, any
    interleaving of the API calls of independent instances gives every instance
    exactly its solo outputs.  PARTIAL by nature: data-race freedom and
    intra-call preemption are properties of the Go memory model that no
    executable Gallina model exhibits; they are explored (polluted pools,
    16 goroutines, the race detector) by bin/check C13, not proved. *)
From Coq Require Import List NArith ZArith.
From PQ Require Import Bytes MetaTypes Pool PoolProofs.
From PQgen Require Import SourceFacts.
Import ListNotations.

Theorem C13_pool_indep :
  forall (snappy_encode : bytes -> bytes -> bytes) (snappy_maxlen : nat -> nat) (gzip_encode : bytes -> bytes),
  (forall d1 d2 src, length d1 = length d2 -> snappy_encode d1 src = snappy_encode d2 src) ->
  forall codec a1 a2 b1 b2 pieces,
  page_body_pooled snappy_encode snappy_maxlen gzip_encode codec a1 a2 pieces =
  page_body_pooled snappy_encode snappy_maxlen gzip_encode codec b1 b2 pieces.
Proof. exact pool_indep. Qed.
Print Assumptions C13_pool_indep.

(** about any state machine [step] whose next state and output ignore the pool;
    [step] is instantiated neither with the writer nor with the reader model *)
Theorem C13_interleave_indep :
  forall (St Call Out : Type) (step : list bytes -> St -> Call -> St * Out * list bytes),
  (forall p1 p2 s c, fst (step p1 s c) = fst (step p2 s c)) ->
  forall sched pool pool' sts i,
  outs_of i (run_sched St Call Out step pool sts sched) =
  run_solo St Call Out step pool' (sts i) (calls_of Call i sched).
Proof. exact interleave_indep. Qed.
Print Assumptions C13_interleave_indep.

From Coq Require Import String.

(** Source census: the buffer pools are the only package-level
    mutable state of package parquet ([fieldFuncs] is a read-only table) and of
    the generated package ([par1] is the constant magic), every buffpool.Get()
    is immediately followed by a deferred Put of the same buffer, and there is
    no go statement.  These are the facts the granularity of the interleaving
    theorem rests on; a new global, a non-deferred Put or a goroutine breaks
    this obligation. *)
Example C13_census_shared_state :
  runtime_package_vars = ["buffpool"; "fieldFuncs"]%string /\
  generated_package_vars = ["buffpool"; "par1"]%string /\
  pool_gets_without_deferred_put = [] /\ go_statements = [].
Proof. repeat split; reflexivity. Qed.
