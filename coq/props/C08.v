(** C08 — reading does not depend on how the source fragments its reads.
    Statements only; proofs in PQ.IoProofs / PQ.ReaderIoProofs.  [mk_src file
    sched fail] is an io.ReadSeeker over [file] whose k-th underlying Read
    returns at most [max 1 (nth k sched)] bytes (unlimited once the schedule is
    exhausted); [read_all_src] is the whole life of the generated reader
    (constructor, Next/Scan until false). *)
From Coq Require Import List NArith ZArith.
From PQ Require Import Bytes Schema Rle Io Reader IoProofs ReaderIoProofs.
From PQgen Require Import SourceFacts.
Import ListNotations.

Theorem C08_read_frag_indep : forall decompress fs file sched1 sched2 fail,
  read_all_src decompress fs (mk_src file sched1 fail) =
  read_all_src decompress fs (mk_src file sched2 fail).
Proof. exact read_frag_indep. Qed.
Print Assumptions C08_read_frag_indep.

(** io.ReadFull over the fragmenting source: exactly the next [want] bytes,
    whatever the schedule; an error only if fewer are left. *)
Theorem C08_read_full : forall fuel want acc s,
  (want <= fuel)%nat -> (want <= length (avail s))%nat ->
  exists s', read_full_loop fuel want acc s = Ok (acc ++ firstn want (avail s), s') /\
             s_file s' = s_file s /\ s_pos s' = (s_pos s + N.of_nat want)%N /\
             s_fail s' = s_fail s /\ s_ops s' = s_ops s.
Proof. exact read_full_loop_ok. Qed.
Print Assumptions C08_read_full.

From Coq Require Import String.

(** Source census (regenerated on every run from /repo's working tree and from
    the code parquetgen generates): no function of fields.go, parquet.go or the
    generated package calls Read directly on its io.Reader/io.ReadSeeker
    parameter — every read of the caller's source goes through io.ReadFull,
    io.CopyN, binary.Read or the thrift transport — and the level decoder's
    single Read calls are made on in-memory buffers only.  This is what ties
    [m_read_full] to the code; a new raw read breaks this obligation. *)
Example C08_census_no_raw_source_read :
  raw_source_reads = [] /\ read_levels_calls_not_on_in_memory_buffer = [].
Proof. split; reflexivity. Qed.

(** For every conformant file (every byte string the independent validator
    accepts) the outcome under ANY schedule is exactly the file's records. *)
From PQ Require Import MetaTypes FileSpec ForeignProofs ConformantFaults.
Theorem C08_conformant_any_schedule : forall (decompress : Z -> bytes -> option bytes) fs file v,
  check_file decompress file = inr v -> fv_fields v = fs -> fshape_ok fs ->
  (forall x, decompress CODEC_UNCOMPRESSED x = Some x) ->
  (forall c x y, wf_bytes x -> decompress c x = Some y -> wf_bytes y) ->
  wf_bytes file ->
  forall sched, read_all_src decompress fs (mk_src file sched None) = expected_outcome v.
Proof. exact conformant_any_schedule. Qed.
Print Assumptions C08_conformant_any_schedule.
