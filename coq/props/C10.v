(** C10 — a failed read or seek never turns into silently wrong rows.
    Statements only; proofs in PQ.IoProofs / PQ.ReaderIoProofs.  The source
    operation with index [k] (a Seek, an io.ReadFull, a thrift struct read)
    fails.  The theorem holds for every byte string [file], valid or not. *)
From Coq Require Import List NArith ZArith.
From PQ Require Import Bytes Schema Rle Io Reader IoProofs ReaderIoProofs.
Import ListNotations.
Local Open Scope N_scope.

Theorem C10_src_fault_safe : forall decompress fs file sched k,
  let good := read_all_src decompress fs (mk_src file sched None) in
  let bad := read_all_src decompress fs (mk_src file sched (Some k)) in
  bad = good \/
  (o_err bad = true /\ o_panic bad = false /\
   (o_open_ok bad = false \/ (o_open_ok good = true /\ o_rows bad = o_rows good)) /\
   o_nexts bad <= o_nexts good /\
   exists rest, o_recs good = o_recs bad ++ rest).
Proof. exact src_fault_safe. Qed.
Print Assumptions C10_src_fault_safe.

Theorem C10_no_error_means_same_rows : forall decompress fs file sched k,
  o_err (read_all_src decompress fs (mk_src file sched (Some k))) = false ->
  read_all_src decompress fs (mk_src file sched (Some k)) = read_all_src decompress fs (mk_src file sched None).
Proof. exact src_fault_clean_same. Qed.
Print Assumptions C10_no_error_means_same_rows.

Theorem C10_no_new_panic : forall decompress fs file sched k,
  o_panic (read_all_src decompress fs (mk_src file sched None)) = false ->
  o_panic (read_all_src decompress fs (mk_src file sched (Some k))) = false.
Proof. exact src_fault_no_new_panic. Qed.

(** The same for the files the property is about: for EVERY byte string the
    independent validator accepts as a conformant file (so: every valid file),
    read through any fragmentation schedule with any single source operation
    failing, the outcome is either exactly the file's records, or an error
    after a prefix of them - no panic, no other rows.  (C04 + C08 + C10.) *)
From PQ Require Import MetaTypes FileSpec ForeignProofs ConformantFaults.
Theorem C10_conformant_fault_safe : forall (decompress : Z -> bytes -> option bytes) fs file v,
  check_file decompress file = inr v -> fv_fields v = fs -> fshape_ok fs ->
  (forall x, decompress CODEC_UNCOMPRESSED x = Some x) ->
  (forall c x y, wf_bytes x -> decompress c x = Some y -> wf_bytes y) ->
  wf_bytes file ->
  forall sched k,
  let bad := read_all_src decompress fs (mk_src file sched (Some k)) in
  bad = expected_outcome v \/
  (o_err bad = true /\ o_panic bad = false /\
   o_nexts bad <= sumN (map rv_rows (fv_rgs v)) /\
   exists rest, view_records v = o_recs bad ++ rest).
Proof. exact conformant_fault_safe. Qed.
Print Assumptions C10_conformant_fault_safe.
