(** C07 — level streams are valid RLE/bit-packed hybrid; encode and decode are
    inverses.  Statements only; the proofs are in PQ.RleEncProofs,
    PQ.RleDecProofs, PQ.RleSpecProofs, PQ.RleProofs.  [rle_encode]/[rle_read]
    are the hand model of internal/rle/rle.go (tied to the code by the
    correspondence runs of bin/check C07); [hybrid_encode]/[hybrid_decode] are
    the format of Encodings.md written independently of the library. *)
From Coq Require Import List NArith.
From PQ Require Import Bytes Bitpack RleSpec Rle BitpackProofs RleSpecProofs RleEncProofs RleDecProofs RleProofs WriteBuffer WriteBufferProofs.
Import ListNotations.
Local Open Scope N_scope.

(** Encoding any sequence of w-bit levels (w = 1..4) yields exactly the framed
    stream (exact length prefix) of a list of well-formed runs whose values are
    the sequence followed by fewer than 8 zero padding values; bit-packed runs
    have one-byte headers (<= 63 groups), RLE runs at least 8 repeats. *)
Theorem C07_encoder_wellformed : forall w ls,
  In w [1; 2; 3; 4] -> Forall (fun v => v < 2 ^ w) ls -> N.of_nat (length ls) < 2 ^ 31 ->
  exists rs pad,
    rle_encode w ls = hybrid_encode w rs /\
    Forall (wf_run w) rs /\
    runs_values rs = ls ++ repeat 0 pad /\
    (pad < 8)%nat /\
    (forall r, In r rs -> match r with RBp gs => (length gs <= 63)%nat | RRle c _ => 8 <= c end).
Proof. exact rle_encode_ok. Qed.
Print Assumptions C07_encoder_wellformed.

(** ... which a specification decoder turns back into the same sequence. *)
Theorem C07_spec_decoder_inverts_encoder : forall w ls,
  In w [1; 2; 3; 4] -> Forall (fun v => v < 2 ^ w) ls -> N.of_nat (length ls) < 2 ^ 31 ->
  exists rs pad,
    hybrid_decode_framed w (rle_encode w ls) = Some (rs, []) /\
    Forall (wf_run w) rs /\
    runs_values rs = ls ++ repeat 0 pad /\ (pad < 8)%nat.
Proof. exact spec_decodes_encoder. Qed.
Print Assumptions C07_spec_decoder_inverts_encoder.

Theorem C07_spec_roundtrip : forall w rs,
  In w [1; 2; 3; 4] -> Forall (wf_run w) rs -> hybrid_decode w (runs_encode w rs) = Some rs.
Proof. exact hybrid_decode_encode. Qed.
Print Assumptions C07_spec_roundtrip.

(** The library's decoder accepts every well-formed stream — any mix of run
    kinds, RLE counts >= 1 (multi-byte headers), bit-packed runs of any group
    count >= 1 — returns exactly its values and consumes exactly its bytes,
    whatever follows it. *)
Theorem C07_decoder_accepts_wellformed : forall w rs rest,
  In w [1; 2; 3; 4] -> Forall (wf_run w) rs ->
  Forall (fun r => match r with RRle c _ => c < 2 ^ 63 | RBp _ => True end) rs ->
  nlen (runs_encode w rs) < 2 ^ 31 ->
  rle_read w (hybrid_encode w rs ++ rest) = Ok (runs_values rs, (4 + length (runs_encode w rs))%nat).
Proof. exact rle_read_ok. Qed.
Print Assumptions C07_decoder_accepts_wellformed.

Theorem C07_roundtrip : forall w ls rest,
  In w [1; 2; 3; 4] -> Forall (fun v => v < 2 ^ w) ls -> N.of_nat (length ls) + 8 <= 2 ^ 31 ->
  exists pad,
    rle_read w (rle_encode w ls ++ rest) = Ok (ls ++ repeat 0 pad, length (rle_encode w ls)) /\
    (pad < 8)%nat.
Proof. exact rle_roundtrip. Qed.
Print Assumptions C07_roundtrip.

(** The encoder model keeps its output as a plain byte list; buf.go's
    writeBuffer (a slice of LENGTH `size` plus a fill index, with three
    branches in writeAt) is modelled faithfully in PQ.WriteBuffer, and the
    encoder run over that buffer produces exactly the same bytes, whatever the
    initial size. *)
Theorem C07_write_buffer_refinement : forall w size levels,
  rle_encode_b w size levels = rle_encode w levels.
Proof. exact rle_encode_b_eq. Qed.
Print Assumptions C07_write_buffer_refinement.

(** Non-vacuity: ten levels of width 1 — an RLE run of 9 zeros (header 0x12)
    and one bit-packed group. *)
Example C07_example :
  rle_encode 1 [0;0;0;0;0;0;0;0;0;1] = [4;0;0;0; 18;0; 3;1] /\
  hybrid_decode_framed 1 [4;0;0;0; 18;0; 3;1] = Some ([RRle 9 0; RBp [[1;0;0;0;0;0;0;0]]], []) /\
  rle_read 1 [4;0;0;0; 18;0; 3;1] = Ok ([0;0;0;0;0;0;0;0;0;1;0;0;0;0;0;0;0], 8%nat).
Proof. repeat split; vm_compute; reflexivity. Qed.
