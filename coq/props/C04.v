(** C04 — the reader decodes every conformant file of the supported subset.
    Statements only.  The core facts, each for ALL inputs: the library's level
    decoder accepts every well-formed hybrid stream, whatever mix of run kinds,
    run lengths and group counts (PQ.RleDecProofs); PLAIN values decode from the
    concatenation of page sections (PQ.PlainProofs); optional thrift fields are
    carried by the decoder (PQ.MetaProofs); and the file-level theorem over the
    choice-driven foreign writer [Foreign.foreign_file] (PQ.ForeignProofs). *)
From Coq Require Import List NArith ZArith.
From PQ Require Import Bytes Schema Bitpack RleSpec Rle BitpackProofs RleSpecProofs RleDecProofs MetaTypes Thrift Meta MetaProofs Reader Foreign ForeignProofs FileSpec ConformantProofs.
Import ListNotations.
Local Open Scope N_scope.

Theorem C04_any_run_segmentation_decodes : forall w rs rest,
  In w [1; 2; 3; 4] -> Forall (wf_run w) rs ->
  Forall (fun r => match r with RRle c _ => c < 2 ^ 63 | RBp _ => True end) rs ->
  nlen (runs_encode w rs) < 2 ^ 31 ->
  rle_read w (hybrid_encode w rs ++ rest) = Ok (runs_values rs, (4 + length (runs_encode w rs))%nat).
Proof. exact rle_read_ok. Qed.
Print Assumptions C04_any_run_segmentation_decodes.

(** optional header fields (CRC, statistics in either form, ...) do not disturb decoding *)
Theorem C04_any_page_header_decodes : forall ph rest,
  page_header_ok ph = true -> dec_page_header (enc_page_header ph ++ rest) = Some (ph, rest).
Proof. exact dec_enc_page_header. Qed.
Print Assumptions C04_any_page_header_decodes.

Theorem C04_any_footer_decodes : forall fm rest,
  file_meta_ok fm = true -> dec_file_meta (enc_file_meta fm ++ rest) = Some (fm, rest).
Proof. exact dec_enc_file_meta. Qed.
Print Assumptions C04_any_footer_decodes.

(** The reader returns exactly the records from every file the foreign writer
    can produce for them: every segmentation of every level stream into RLE
    runs (any length >= 1) and bit-packed runs (any group count, any padding
    value), every split of every column into pages at record boundaries
    (independently per column), every assignment of the three codecs to
    columns, statistics absent / current / deprecated fields too, CRC,
    created_by, key/value metadata, encoding_stats, any of the three
    file_offset conventions and either total_byte_size convention.
    [choices_ok] only asks for supported codecs; [fsizes_ok] is the int32 size
    limits of the format. *)
Theorem C04_foreign_read_ok :
  forall (compress : Z -> bytes -> bytes) (decompress : Z -> bytes -> option bytes),
  (forall c x, In c [CODEC_UNCOMPRESSED; CODEC_SNAPPY; CODEC_GZIP] -> decompress c (compress c x) = Some x) ->
  (forall x, compress CODEC_UNCOMPRESSED x = x) ->
  forall fs fc batches,
  fshape_ok fs -> Forall (fbatch_ok fs) batches -> choices_ok fc -> fc_inject fc = None ->
  fsizes_ok compress fs fc batches ->
  read_all decompress fs (foreign_file compress fs fc batches) =
  {| o_open_ok := true;
     o_rows := Z.of_nat (length (concat batches));
     o_nexts := N.of_nat (length (concat batches));
     o_err := false; o_panic := false;
     o_recs := concat batches |}.
Proof. exact foreign_read_ok. Qed.
Print Assumptions C04_foreign_read_ok.

(** the segmentation itself: whatever the choices, well-formed runs of the levels plus < 8 padding values *)
Theorem C04_segment_ok : forall fuel w choices pad ls,
  (length ls <= fuel)%nat -> Forall (fun v => v < 2 ^ w) ls -> nlen ls < 2 ^ 63 ->
  exists padding,
    runs_values (segment fuel w choices pad ls) = ls ++ padding /\ (length padding < 8)%nat /\
    Forall (wf_run w) (segment fuel w choices pad ls) /\
    Forall RleDecProofs.run_small (segment fuel w choices pad ls).
Proof. exact segment_ok. Qed.
Print Assumptions C04_segment_ok.

(** The property at full strength, without a writer in the statement: EVERY
    byte string that the independent validator [FileSpec.check_file] accepts as
    a conformant file of the supported subset (magic, footer, schema, per
    column chunk: offsets, codec, page headers of the one page type the subset
    has (DATA_PAGE), levels as any well-formed hybrid stream, PLAIN values,
    counts consistent) is read back by the reader model as exactly the records
    the validator's own reference assembly sees ([view_records]), with the
    file's row count, no error and no panic.  Row groups with zero rows are allowed
    anywhere (the loop of Next skips them: /repo 0d8f069).  [decompress] is
    any function that is the identity on UNCOMPRESSED and returns bytes. *)
Theorem C04_conformant_read_ok : forall (decompress : Z -> bytes -> option bytes) fs file v,
  check_file decompress file = inr v ->
  fv_fields v = fs ->
  fshape_ok fs ->
  (forall x, decompress CODEC_UNCOMPRESSED x = Some x) ->
  (forall c x y, wf_bytes x -> decompress c x = Some y -> wf_bytes y) ->
  wf_bytes file ->
  read_all decompress fs file =
  {| o_open_ok := true; o_rows := Z.of_N (sumN (map rv_rows (fv_rgs v)));
     o_nexts := sumN (map rv_rows (fv_rgs v)); o_err := false; o_panic := false;
     o_recs := view_records v |}.
Proof. exact conformant_read_ok. Qed.
Print Assumptions C04_conformant_read_ok.
