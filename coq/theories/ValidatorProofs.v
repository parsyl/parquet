(** * ValidatorProofs: the independent validator [FileSpec.check_file] accepts
    every file the writer model produces and sees exactly the records that
    were written (property C02). *)
From Coq Require Import List NArith ZArith Lia Bool Arith PeanoNat.
From Coq Require Import ZifyN ZifyNat ZifyBool.
From PQ Require Import Bytes Schema Dremel DremelProofs Plain PlainProofs Stats StatsProofs
  MetaTypes Thrift Meta MetaProofs Writer WriterProofs FileSpec PageProofs SchemaProofs.
Import ListNotations.
Local Open Scope N_scope.

Lemma skipn_nlen_app {A} (a b : list A) : skipn (N.to_nat (nlen a)) (a ++ b) = b.
Proof. unfold nlen. rewrite Nat2N.id. apply skipn_app_exact. Qed.

(** The validator's walks keep "the file from [pos] on is [a ++ b]"; having
    consumed [a] they are at [pos + nlen a] in front of [b]. *)
Lemma skipn_past {A} (file a b : list A) pos :
  skipn (N.to_nat pos) file = a ++ b -> skipn (N.to_nat (pos + nlen a)) file = b.
Proof. intros H. rewrite N2Nat.inj_add, skipn_add, H. apply skipn_nlen_app. Qed.

Definition page_len (p : page) : N := nlen (pg_header_bytes p) + nlen (pg_body p).

Lemma nlen_chunk_bytes_cons p ps :
  nlen (chunk_bytes (p :: ps)) = page_len p + nlen (chunk_bytes ps).
Proof. rewrite chunk_bytes_cons, !nlen_app. unfold page_len. lia. Qed.

Lemma page_len_pos compress codec c es : 1 <= page_len (make_page compress codec c es).
Proof.
  unfold page_len. rewrite make_page_eq. cbn [pg_header_bytes].
  pose proof (enc_page_header_nonempty (page_hdr compress codec c es)). unfold nlen. lia.
Qed.

Lemma pages_count_le_bytes compress codec c ess :
  N.of_nat (length ess) <= nlen (chunk_bytes (map (make_page compress codec c) ess)).
Proof.
  induction ess as [|es ess IH]; [cbn; lia|].
  cbn [map length]. rewrite nlen_chunk_bytes_cons.
  pose proof (page_len_pos compress codec c es). lia.
Qed.

Definition rec_ok (fs : list field) (r : value) : Prop := has_tyb (TGroup fs) r = true.

Lemma forallb_map' {A B} (f : B -> bool) (g : A -> B) l : forallb f (map g l) = forallb (fun x => f (g x)) l.
Proof. induction l as [|x l IH]; cbn [map forallb]; [reflexivity|]. rewrite IH. reflexivity. Qed.

Lemma slice_app (a b c : bytes) : slice (nlen a) (nlen b) (a ++ b ++ c) = b.
Proof.
  unfold slice. rewrite skipn_nlen_app. unfold nlen. rewrite Nat2N.id. apply firstn_app_exact.
Qed.

Lemma bytes_eq_refl a : bytes_eq a a = true.
Proof. unfold bytes_eq. destruct (list_eq_dec N.eq_dec a a); congruence. Qed.

(** The writer's layout: magic, data, footer, 4-byte footer length, magic.  What
    remains is that the footer decodes, its schema parses and the row groups
    cover the data. *)
Lemma check_file_layout decompress B ft fm fs rvs :
  let file := magic ++ B ++ ft ++ le_enc 4 (nlen ft) ++ magic in
  nlen ft < 2 ^ 32 ->
  dec_file_meta ft = Some (fm, []) ->
  parse_schema (fm_schema fm) = inr fs ->
  check_row_groups decompress file (4 + nlen B) fs (columns fs) 4 (fm_row_groups fm) =
    inr (rvs, 4 + nlen B) ->
  fm_num_rows fm = Z.of_N (sumN (map rv_rows rvs)) ->
  check_file decompress file =
  inr {| fv_meta := fm; fv_fields := fs; fv_cols := columns fs; fv_rgs := rvs |}.
Proof.
  intros file Hlen.
  assert (HLd : le_dec (le_enc 4 (nlen ft)) = nlen ft) by (apply le_dec_enc; exact Hlen).
  clear Hlen. set (L := le_enc 4 (nlen ft)) in *.
  assert (HL : nlen L = 4) by (unfold L, nlen; rewrite le_enc_length; reflexivity).
  assert (Hm : nlen magic = 4) by reflexivity.
  assert (H0 : firstn 4 file = magic) by reflexivity.
  assert (Ha : nlen file - 4 = nlen (magic ++ B ++ ft ++ L) /\
               nlen file - 8 = nlen (magic ++ B ++ ft) /\
               nlen file - 8 - nlen ft = nlen (magic ++ B) /\
               (nlen file <? 12) = false /\ (nlen file <? nlen ft + 12) = false).
  { unfold file. rewrite !nlen_app, HL, Hm. lia. }
  destruct Ha as (A1 & A2 & A3 & Hc1 & Hc2).
  assert (H1 : slice (nlen file - 4) 4 file = magic).
  { rewrite A1. replace file with ((magic ++ B ++ ft ++ L) ++ magic ++ [])
      by (unfold file; rewrite app_nil_r, <- !app_assoc; reflexivity).
    apply (slice_app _ magic). }
  assert (H2 : slice (nlen file - 8) 4 file = L).
  { rewrite A2, <- HL. replace file with ((magic ++ B ++ ft) ++ L ++ magic)
      by (unfold file; rewrite <- !app_assoc; reflexivity).
    apply slice_app. }
  assert (H3 : slice (nlen file - 8 - nlen ft) (nlen ft) file = ft).
  { rewrite A3. replace file with ((magic ++ B) ++ ft ++ L ++ magic)
      by (unfold file; rewrite <- !app_assoc; reflexivity).
    apply slice_app. }
  assert (Hs : nlen (magic ++ B) = 4 + nlen B) by apply nlen_app.
  clearbody file L. intros Hdec Hsch Hrgs Hrows.
  unfold check_file. cbv zeta.
  rewrite H0, H1, H2, HLd, H3, A3, Hs, Hc1, Hc2, Hdec, Hsch, Hrgs, N.eqb_refl, Hrows, Z.eqb_refl.
  change magic_bytes with magic. rewrite bytes_eq_refl. reflexivity.
Qed.

Section WithCodec.

Variable compress : Z -> bytes -> bytes.
Variable decompress : Z -> bytes -> option bytes.
Hypothesis Hcodec : forall c x, In c [CODEC_UNCOMPRESSED; CODEC_SNAPPY; CODEC_GZIP] ->
                                 decompress c (compress c x) = Some x.

(** ** Pages of one column chunk *)

Definition page_guard (codec : Z) (c : col) (es : list entry) : Prop :=
  entries_ok c es /\ nlen (compress codec (page_payload c es)) < 2 ^ 31.

Definition page_view_of (off : N) (p : page) (es : list entry) : page_view :=
  {| pv_offset := off; pv_header_len := nlen (pg_header_bytes p); pv_header := pg_header p;
     pv_entries := es; pv_records := count_rep0 es; pv_stats_ok := true |}.

Fixpoint page_views (codec : Z) (c : col) (off : N) (ess : list (list entry)) : list page_view :=
  match ess with
  | [] => []
  | es :: r =>
      let p := make_page compress codec c es in
      page_view_of off p es :: page_views codec c (off + page_len p) r
  end.

Lemma check_pages_written c codec :
  col_ok c -> codec_ok codec ->
  forall ess fuel off rest,
    Forall (page_guard codec c) ess -> (length ess < fuel)%nat ->
    check_pages decompress fuel c codec off
      (nlen (chunk_bytes (map (make_page compress codec c) ess)))
      (chunk_bytes (map (make_page compress codec c) ess) ++ rest) =
    inr (page_views codec c off ess).
Proof.
  intros Hc Hcd. induction ess as [|es ess IH]; intros fuel off rest Hess Hfuel;
    (destruct fuel as [|f]; [cbn [length] in Hfuel; lia|]); [reflexivity|].
  cbn [length] in Hfuel. pose proof (Forall_inv Hess) as [Hok Hbody].
  pose proof (page_len_pos compress codec c es) as Hpos.
  pose proof (check_page_make_page compress decompress Hcodec c codec off es
                (chunk_bytes (map (make_page compress codec c) ess) ++ rest) Hc Hok Hcd Hbody) as HP.
  cbv zeta in HP. cbn [map check_pages page_views].
  rewrite nlen_chunk_bytes_cons, chunk_bytes_cons, <- !app_assoc.
  set (tl := chunk_bytes (map (make_page compress codec c) ess)) in *.
  generalize dependent (make_page compress codec c es). intros p Hpos HP. rewrite HP.
  change (nlen (pg_header_bytes p) + nlen (pg_body p)) with (page_len p).
  replace (page_len p + nlen tl =? 0) with false by lia.
  replace (page_len p + nlen tl <? page_len p) with false by lia.
  rewrite (N.add_comm (page_len p)), N.add_sub, (app_assoc (pg_header_bytes p)).
  replace (page_len p) with (nlen (pg_header_bytes p ++ pg_body p)) by apply nlen_app.
  rewrite skipn_nlen_app, IH by (eauto using Forall_inv_tail || lia). rewrite nlen_app.
  reflexivity.
Qed.

Definition chunk_cm (codec : Z) (pos : N) (ca : chunk_acc) : column_meta :=
  {| cm_type := prim_type (c_prim (ca_col ca));
     cm_encodings := [ENC_PLAIN];
     cm_path := c_path (ca_col ca);
     cm_codec := codec;
     cm_num_values := Z.of_N (ca_num_values ca);
     cm_total_uncompressed := Z.of_N (ca_uncompressed ca);
     cm_total_compressed := Z.of_N (ca_compressed ca);
     cm_key_value := None;
     cm_data_page_offset := Z.of_N pos;
     cm_index_page_offset := None; cm_dictionary_page_offset := None;
     cm_statistics := None; cm_encoding_stats := None |}.

Definition chunk_view_of (codec : Z) (c : col) (pos : N) (ess : list (list entry)) : chunk_view :=
  {| cv_col := c;
     cv_meta := chunk_cm codec pos (chunk_of_pages c (map (make_page compress codec c) ess));
     cv_file_offset := Z.of_N pos;
     cv_pages := page_views codec c pos ess |}.

Lemma prim_type_phys p : prim_type p = phys_type p.
Proof. destruct p; reflexivity. Qed.

Lemma path_eq_refl a : path_eq a a = true.
Proof. unfold path_eq. destruct (list_eq_dec (list_eq_dec N.eq_dec) a a); congruence. Qed.

Lemma codec_ok_supported codec : codec_ok codec -> codec_supported codec = true.
Proof.
  unfold codec_ok. cbn [In]. intros [<-|[<-|[<-|[]]]]; reflexivity.
Qed.

Lemma page_views_entries codec c ess : forall off, map pv_entries (page_views codec c off ess) = ess.
Proof.
  induction ess as [|es ess IH]; intros off; [reflexivity|].
  cbn [page_views map page_view_of pv_entries]. rewrite IH. reflexivity.
Qed.

Lemma page_views_uncompressed codec c ess :
  Forall (page_guard codec c) ess -> forall off,
  sumN (map (fun pv => pv_header_len pv + Z.to_N (ph_uncompressed_size (pv_header pv)))
            (page_views codec c off ess)) =
  sumN (map (fun p => nlen (pg_header_bytes p) + pg_payload_len p)
            (map (make_page compress codec c) ess)).
Proof.
  induction 1 as [|es ess Hes Hess IH]; intros off; [reflexivity|].
  cbn [page_views map sumN]. rewrite IH. f_equal.
  destruct Hes as [(_ & _ & _ & _ & Hpay) _].
  rewrite make_page_eq.
  cbn [page_view_of pv_header_len pv_header pg_header pg_header_bytes pg_payload_len
       page_hdr ph_uncompressed_size].
  rewrite i32_small_to_N by exact Hpay. reflexivity.
Qed.

Lemma check_chunk_written file limit c codec pos ess post :
  col_ok c -> codec_ok codec -> Forall (page_guard codec c) ess ->
  skipn (N.to_nat pos) file = chunk_bytes (map (make_page compress codec c) ess) ++ post ->
  pos + nlen (chunk_bytes (map (make_page compress codec c) ess)) <= limit ->
  check_chunk decompress file limit c pos
    (chunk_meta codec pos (chunk_of_pages c (map (make_page compress codec c) ess))) =
  inr (chunk_view_of codec c pos ess,
       pos + nlen (chunk_bytes (map (make_page compress codec c) ess))).
Proof.
  intros Hc Hcd Hess Hfile Hlim.
  set (pages := map (make_page compress codec c) ess) in *.
  unfold check_chunk, chunk_meta. cbn [cc_meta cc_file_offset].
  fold (chunk_cm codec pos (chunk_of_pages c pages)).
  cbn [chunk_cm cm_path cm_type cm_codec cm_data_page_offset cm_total_compressed
       cm_total_uncompressed cm_num_values chunk_of_pages ca_col].
  rewrite path_eq_refl, prim_type_phys, Z.eqb_refl, (codec_ok_supported codec Hcd), Z.eqb_refl.
  cbn [negb]. rewrite !Z_of_N_ltb0. cbn [orb]. rewrite !N2Z.id.
  fold (chunk_of_pages c pages). rewrite ca_compressed_pages.
  destruct (N.ltb_spec limit (pos + nlen (chunk_bytes pages))) as [Hlt|_]; [lia|].
  rewrite orb_true_r. cbn [orb negb].
  rewrite Hfile. subst pages.
  rewrite check_pages_written; try assumption.
  2:{ pose proof (pages_count_le_bytes compress codec c ess). lia. }
  rewrite <- (map_map pv_entries (@nlen entry)), page_views_entries, page_views_uncompressed by exact Hess.
  cbn [chunk_of_pages ca_num_values ca_uncompressed]. rewrite map_map.
  rewrite !N.eqb_refl. cbn [negb]. reflexivity.
Qed.

(** ** The column chunks of one row group

    [cess] is, per column of the row group, the column and the entry lists of
    its pages; [ce] is one such pair. *)

Definition col_pages (codec : Z) (ce : col * list (list entry)) : list page :=
  map (make_page compress codec (fst ce)) (snd ce).

Definition cols_bytes (codec : Z) (cess : list (col * list (list entry))) : bytes :=
  concat (map (fun ce => chunk_bytes (col_pages codec ce)) cess).

Definition cols_accs (codec : Z) (cess : list (col * list (list entry))) : list chunk_acc :=
  map (fun ce => chunk_of_pages (fst ce) (col_pages codec ce)) cess.

Fixpoint chunk_views (codec : Z) (pos : N) (cess : list (col * list (list entry))) : list chunk_view :=
  match cess with
  | [] => []
  | ce :: r =>
      chunk_view_of codec (fst ce) pos (snd ce)
      :: chunk_views codec (pos + nlen (chunk_bytes (col_pages codec ce))) r
  end.

Definition col_guard (codec : Z) (ce : col * list (list entry)) : Prop :=
  col_ok (fst ce) /\ Forall (page_guard codec (fst ce)) (snd ce).

Lemma cols_bytes_cons codec ce r :
  cols_bytes codec (ce :: r) = chunk_bytes (col_pages codec ce) ++ cols_bytes codec r.
Proof. reflexivity. Qed.

Lemma cols_accs_compressed codec cess :
  sumN (map ca_compressed (cols_accs codec cess)) = nlen (cols_bytes codec cess).
Proof.
  unfold cols_accs, cols_bytes. rewrite <- sumN_nlen_concat, !map_map.
  f_equal. apply map_ext. intros ce. apply ca_compressed_pages.
Qed.

Lemma check_chunks_written file limit codec :
  codec_ok codec ->
  forall cess pos post,
    Forall (col_guard codec) cess ->
    skipn (N.to_nat pos) file = cols_bytes codec cess ++ post ->
    pos + nlen (cols_bytes codec cess) <= limit ->
    check_chunks decompress file limit (map fst cess) pos
      (fst (chunks_meta codec pos (cols_accs codec cess))) =
    inr (chunk_views codec pos cess, pos + nlen (cols_bytes codec cess)).
Proof.
  intros Hcd. induction cess as [|ce r IH]; intros pos post Hg Hfile Hlim.
  - cbn. rewrite N.add_0_r. reflexivity.
  - pose proof (Forall_inv Hg) as [Hc Hps].
    cbn [cols_accs map]. fold (cols_accs codec r).
    rewrite chunks_meta_cons. cbn [fst check_chunks chunk_views].
    rewrite cols_bytes_cons, nlen_app in *. rewrite <- app_assoc in Hfile.
    unfold col_pages at 1.
    rewrite (check_chunk_written file limit (fst ce) codec pos (snd ce) _ Hc Hcd Hps Hfile)
      by (unfold col_pages in Hlim; lia).
    fold (col_pages codec ce). rewrite ca_compressed_pages.
    rewrite (IH _ post (Forall_inv_tail Hg) (skipn_past _ _ _ _ Hfile)) by lia.
    rewrite N.add_assoc. reflexivity.
Qed.

(** ** One row group = one non-empty batch *)

Definition batch_cess (cfg : config) (recs : list value) : list (col * list (list entry)) :=
  map (fun ic => (snd ic, map (column_entries (cfg_fields cfg) (fst ic)) (chunk (cfg_max cfg) recs)))
      (index_from 0 (columns (cfg_fields cfg))).

Lemma batch_cess_cols cfg b : map fst (batch_cess cfg b) = columns (cfg_fields cfg).
Proof. unfold batch_cess. rewrite map_map. cbn [fst]. apply index_from_snd. Qed.

Lemma per_col_batch_cess cfg b :
  per_col compress cfg b = map (fun ce => (fst ce, col_pages (cfg_codec cfg) ce)) (batch_cess cfg b).
Proof.
  unfold per_col, batch_cess. rewrite map_map. apply map_ext. intros [i c].
  cbn [fst snd]. unfold col_pages, column_pages. cbn [fst snd]. rewrite map_map. reflexivity.
Qed.

Lemma batch_bytes_cess cfg b :
  concat (fst (write_batch compress cfg b)) = cols_bytes (cfg_codec cfg) (batch_cess cfg b).
Proof.
  rewrite write_batch_fst, concat_page_writes, per_col_batch_cess, map_map. reflexivity.
Qed.

Lemma batch_chunks_cess cfg b :
  ra_chunks (snd (write_batch compress cfg b)) = cols_accs (cfg_codec cfg) (batch_cess cfg b).
Proof. rewrite write_batch_chunks, per_col_batch_cess, map_map. reflexivity. Qed.

Definition page_sizes_ok (codec : Z) (c : col) (es : list entry) : Prop :=
  N.of_nat (length es) + 8 <= 2 ^ 31 /\
  nlen (page_payload c es) < 2 ^ 31 /\
  nlen (compress codec (page_payload c es)) < 2 ^ 31.

Definition batch_sizes_ok (cfg : config) (b : list value) : Prop :=
  Forall (fun ce => Forall (page_sizes_ok (cfg_codec cfg) (fst ce)) (snd ce)) (batch_cess cfg b).

Lemma batch_cess_page cfg b ce es :
  (1 <= cfg_max cfg)%nat -> Forall (rec_ok (cfg_fields cfg)) b ->
  In ce (batch_cess cfg b) -> In es (snd ce) ->
  es <> [] /\ Forall (entry_wf (fst ce)) es /\ first_rep0 es /\
  count_rep0 es <= N.of_nat (cfg_max cfg).
Proof.
  intros Hmax Hrecs Hce Hes.
  unfold batch_cess in Hce. apply in_map_iff in Hce. destruct Hce as ([i c] & <- & Hic).
  cbn [fst snd] in *. apply index_from_In in Hic. destruct Hic as [_ Hnth].
  rewrite Nat.sub_0_r in Hnth.
  apply in_map_iff in Hes. destruct Hes as (pg & <- & Hpg).
  destruct (chunk_spec (cfg_max cfg) b Hmax) as [_ Hch]. rewrite Forall_forall in Hch.
  destruct (Hch pg Hpg) as (Hne & Hlen).
  pose proof (proj1 (Forall_forall _ _) (chunk_Forall _ _ b Hmax Hrecs) pg Hpg) as Hpgok.
  destruct (column_entries_ok (cfg_fields cfg) pg i c Hpgok Hnth) as (H2 & H3 & H4 & H1).
  specialize (H1 Hne). rewrite H4. unfold nlen. repeat split; try assumption. lia.
Qed.

Lemma batch_col_guard cfg b :
  Forall col_ok (columns (cfg_fields cfg)) -> Forall (rec_ok (cfg_fields cfg)) b ->
  (1 <= cfg_max cfg)%nat -> batch_sizes_ok cfg b ->
  Forall (col_guard (cfg_codec cfg)) (batch_cess cfg b).
Proof.
  intros Hcols Hrecs Hmax Hsz. unfold batch_sizes_ok in Hsz.
  rewrite Forall_forall in Hcols, Hsz |- *. intros ce Hce. specialize (Hsz ce Hce). split.
  - apply Hcols. rewrite <- (batch_cess_cols cfg b). apply in_map, Hce.
  - rewrite Forall_forall in Hsz |- *. intros es Hes. destruct (Hsz es Hes) as (Hs1 & Hs2 & Hs3).
    destruct (batch_cess_page cfg b ce es Hmax Hrecs Hce Hes) as (H1 & H2 & H3 & _).
    split; [|exact Hs3]. repeat split; assumption.
Qed.

Definition batch_rg (cfg : config) (pos : N) (b : list value) : row_group :=
  {| rg_columns := fst (chunks_meta (cfg_codec cfg) pos (cols_accs (cfg_codec cfg) (batch_cess cfg b)));
     rg_total_byte_size := Z.of_N (nlen (cols_bytes (cfg_codec cfg) (batch_cess cfg b)));
     rg_num_rows := Z.of_N (nlen b) |}.

Definition rg_view_of (cfg : config) (pos : N) (b : list value) : rg_view :=
  {| rv_rows := nlen b;
     rv_chunks := chunk_views (cfg_codec cfg) pos (batch_cess cfg b);
     rv_records := b |}.

Lemma chunk_views_entries codec cess : forall pos,
  map chunk_entries (chunk_views codec pos cess) = map (fun ce => concat (snd ce)) cess.
Proof.
  induction cess as [|ce r IH]; intros pos; [reflexivity|].
  cbn [chunk_views map]. rewrite IH. f_equal.
  unfold chunk_entries, chunk_view_of. cbn [cv_pages]. rewrite flat_map_concat_map, page_views_entries. reflexivity.
Qed.

Lemma chunk_views_compressed codec cess : forall pos,
  map (fun cv => Z.to_N (cm_total_compressed (cv_meta cv))) (chunk_views codec pos cess) =
  map ca_compressed (cols_accs codec cess).
Proof.
  induction cess as [|ce r IH]; intros pos; [reflexivity|].
  cbn [chunk_views map cols_accs]. fold (cols_accs codec r). rewrite IH. f_equal.
  unfold chunk_view_of. cbn [cv_meta chunk_cm cm_total_compressed]. apply N2Z.id.
Qed.

Lemma batch_entries_shred cfg b pos :
  (1 <= cfg_max cfg)%nat -> Forall (rec_ok (cfg_fields cfg)) b ->
  map chunk_entries (chunk_views (cfg_codec cfg) pos (batch_cess cfg b)) =
  shred_records (cfg_fields cfg) b.
Proof.
  intros Hmax Hrecs. rewrite chunk_views_entries, shred_records_columns by exact Hrecs.
  unfold batch_cess. rewrite map_map. cbn [snd].
  rewrite <- (index_from_fst (columns (cfg_fields cfg)) 0), map_map.
  apply map_ext. intros [i c]. cbn [fst].
  rewrite column_entries_concat. destruct (chunk_spec (cfg_max cfg) b Hmax) as [-> _]. reflexivity.
Qed.

Lemma check_row_group_written file limit cfg pos b post :
  codec_ok (cfg_codec cfg) -> ty_okb (TGroup (cfg_fields cfg)) = true ->
  Forall col_ok (columns (cfg_fields cfg)) -> (1 <= cfg_max cfg)%nat ->
  Forall (rec_ok (cfg_fields cfg)) b -> batch_sizes_ok cfg b ->
  skipn (N.to_nat pos) file = cols_bytes (cfg_codec cfg) (batch_cess cfg b) ++ post ->
  pos + nlen (cols_bytes (cfg_codec cfg) (batch_cess cfg b)) <= limit ->
  check_row_group decompress file limit (cfg_fields cfg) (columns (cfg_fields cfg)) pos (batch_rg cfg pos b) =
  inr (rg_view_of cfg pos b, pos + nlen (cols_bytes (cfg_codec cfg) (batch_cess cfg b))).
Proof.
  intros Hcd Hty Hcols Hmax Hrecs Hsz Hfile Hlim.
  unfold check_row_group, batch_rg. cbn [rg_columns rg_num_rows rg_total_byte_size].
  rewrite <- (batch_cess_cols cfg b).
  rewrite (check_chunks_written file limit (cfg_codec cfg) Hcd (batch_cess cfg b) pos post)
    by (try assumption; apply batch_col_guard; assumption).
  rewrite Z_of_N_ltb0, N2Z.id.
  rewrite <- (forallb_map' (fun es => count_rep0 es =? nlen b) chunk_entries).
  rewrite (batch_entries_shred cfg b pos Hmax Hrecs).
  replace (forallb (fun es => count_rep0 es =? nlen b) (shred_records (cfg_fields cfg) b)) with true.
  2:{ symmetry. apply forallb_forall. intros es Hes.
      rewrite (record_boundaries_all (cfg_fields cfg) b es Hrecs Hes). apply N.eqb_refl. }
  cbn [negb]. rewrite chunk_views_compressed, cols_accs_compressed, Z.eqb_refl. cbn [orb negb].
  rewrite (assemble_shred_records (cfg_fields cfg) b Hty Hrecs), N.eqb_refl. cbn [negb].
  reflexivity.
Qed.

Definition batches_bytes (cfg : config) (bs : list (list value)) : bytes :=
  concat (map (fun b => cols_bytes (cfg_codec cfg) (batch_cess cfg b)) bs).

Fixpoint rg_views (cfg : config) (pos : N) (bs : list (list value)) : list rg_view :=
  match bs with
  | [] => []
  | b :: r => rg_view_of cfg pos b
              :: rg_views cfg (pos + nlen (cols_bytes (cfg_codec cfg) (batch_cess cfg b))) r
  end.

Definition batch_rgs (cfg : config) (bs : list (list value)) : list rg_acc :=
  map (fun b => snd (write_batch compress cfg b)) bs.

Lemma rg_bytes_batch cfg b :
  rg_bytes (snd (write_batch compress cfg b)) = nlen (cols_bytes (cfg_codec cfg) (batch_cess cfg b)).
Proof. unfold rg_bytes. rewrite batch_chunks_cess. apply cols_accs_compressed. Qed.

Lemma row_groups_meta_batch cfg pos b r :
  row_groups_meta (cfg_codec cfg) pos (batch_rgs cfg (b :: r)) =
  batch_rg cfg pos b ::
  row_groups_meta (cfg_codec cfg) (pos + nlen (cols_bytes (cfg_codec cfg) (batch_cess cfg b))) (batch_rgs cfg r).
Proof.
  unfold batch_rgs. cbn [map]. rewrite row_groups_meta_cons, rg_bytes_batch, batch_chunks_cess.
  reflexivity.
Qed.

Definition batch_ok (cfg : config) (b : list value) : Prop :=
  Forall (rec_ok (cfg_fields cfg)) b /\ batch_sizes_ok cfg b.

Lemma check_row_groups_written file limit cfg :
  codec_ok (cfg_codec cfg) -> ty_okb (TGroup (cfg_fields cfg)) = true ->
  Forall col_ok (columns (cfg_fields cfg)) -> (1 <= cfg_max cfg)%nat ->
  forall bs pos post,
    Forall (batch_ok cfg) bs ->
    skipn (N.to_nat pos) file = batches_bytes cfg bs ++ post ->
    pos + nlen (batches_bytes cfg bs) <= limit ->
    check_row_groups decompress file limit (cfg_fields cfg) (columns (cfg_fields cfg)) pos
      (row_groups_meta (cfg_codec cfg) pos (batch_rgs cfg bs)) =
    inr (rg_views cfg pos bs, pos + nlen (batches_bytes cfg bs)).
Proof.
  intros Hcd Hty Hcols Hmax.
  induction bs as [|b r IH]; intros pos post Hbs Hfile Hlim.
  - cbn. rewrite N.add_0_r. reflexivity.
  - pose proof (Forall_inv Hbs) as [Hrecs Hsz].
    rewrite row_groups_meta_batch. cbn [check_row_groups rg_views].
    unfold batches_bytes in *. cbn [map concat] in *. fold (batches_bytes cfg r) in *.
    rewrite nlen_app in *. rewrite <- app_assoc in Hfile.
    rewrite (check_row_group_written file limit cfg pos b _ Hcd Hty Hcols Hmax Hrecs Hsz Hfile) by lia.
    rewrite (IH _ post (Forall_inv_tail Hbs) (skipn_past _ _ _ _ Hfile)) by lia.
    rewrite N.add_assoc. reflexivity.
Qed.

Lemma rg_views_rows cfg bs : forall pos, map rv_rows (rg_views cfg pos bs) = map (@nlen value) bs.
Proof. induction bs as [|b r IH]; intros pos; [reflexivity|]. cbn [rg_views map rg_view_of rv_rows]. rewrite IH. reflexivity. Qed.

Lemma rg_views_records cfg bs : forall pos, map rv_records (rg_views cfg pos bs) = bs.
Proof. induction bs as [|b r IH]; intros pos; [reflexivity|]. cbn [rg_views map rg_view_of rv_records]. rewrite IH. reflexivity. Qed.

Definition all_pages (P : page_view -> Prop) (rvs : list rg_view) : Prop :=
  Forall (fun rv => Forall (fun cv => Forall P (cv_pages cv)) (rv_chunks rv)) rvs.

Lemma page_views_Forall (P : page_view -> Prop) codec c ess :
  (forall off es, In es ess -> P (page_view_of off (make_page compress codec c es) es)) ->
  forall off, Forall P (page_views codec c off ess).
Proof.
  induction ess as [|es ess IH]; intros HP off; [constructor|].
  cbn [page_views]. constructor; [apply HP; left; reflexivity|].
  apply IH. intros off' es' Hin. apply HP. right. exact Hin.
Qed.

Lemma chunk_views_Forall (Q : chunk_view -> Prop) codec cess :
  (forall pos ce, In ce cess -> Q (chunk_view_of codec (fst ce) pos (snd ce))) ->
  forall pos, Forall Q (chunk_views codec pos cess).
Proof.
  induction cess as [|ce r IH]; intros HQ pos; [constructor|].
  cbn [chunk_views]. constructor; [apply HQ; left; reflexivity|].
  apply IH. intros pos' ce' Hin. apply HQ. right. exact Hin.
Qed.

Lemma rg_views_pages cfg bs :
  (1 <= cfg_max cfg)%nat -> Forall (fun b => Forall (rec_ok (cfg_fields cfg)) b) bs ->
  forall pos,
  all_pages (fun pv => pv_records pv <= N.of_nat (cfg_max cfg) /\ pv_stats_ok pv = true)
            (rg_views cfg pos bs).
Proof.
  intros Hmax. induction 1 as [|b r Hrecs Hr IH]; intros pos; [constructor|].
  cbn [rg_views]. constructor; [|apply IH].
  unfold rg_view_of. cbn [rv_chunks]. apply chunk_views_Forall.
  intros pos' ce Hce. unfold chunk_view_of. cbn [cv_pages]. apply page_views_Forall.
  intros off es Hes. unfold page_view_of. cbn [pv_records pv_stats_ok]. split; [|reflexivity].
  apply (batch_cess_page cfg b ce es); assumption.
Qed.

(** all the size guards: per page the int32 fields of the header, for the
    footer the ranges of its thrift integers and lengths, and its own length *)
Definition sizes_ok (cfg : config) (bs : list (list value)) : Prop :=
  Forall (batch_sizes_ok cfg) bs /\
  file_meta_ok (footer_meta cfg (batch_rgs cfg bs)) = true /\
  nlen (enc_file_meta (footer_meta cfg (batch_rgs cfg bs))) < 2 ^ 32.

Definition file_view_of (cfg : config) (bs : list (list value)) : file_view :=
  {| fv_meta := footer_meta cfg (batch_rgs cfg bs);
     fv_fields := cfg_fields cfg;
     fv_cols := columns (cfg_fields cfg);
     fv_rgs := rg_views cfg 4 bs |}.

Lemma file_of_batches_eq cfg bs :
  file_of_batches compress cfg bs =
  magic ++ batches_bytes cfg bs ++ enc_file_meta (footer_meta cfg (batch_rgs cfg bs))
        ++ le_enc 4 (nlen (enc_file_meta (footer_meta cfg (batch_rgs cfg bs))) mod 2 ^ 32) ++ magic.
Proof.
  unfold file_of_batches, close_writes, batches_bytes, batch_rgs. cbn [concat].
  rewrite !map_map, app_nil_r. do 2 f_equal.
  - f_equal. apply map_ext. intros b. apply batch_bytes_cess.
Qed.

Theorem check_file_written cfg bs :
  codec_ok (cfg_codec cfg) -> ty_okb (TGroup (cfg_fields cfg)) = true ->
  Forall col_ok (columns (cfg_fields cfg)) -> (1 <= cfg_max cfg)%nat ->
  parse_schema (schema_of (columns (cfg_fields cfg))) = inr (cfg_fields cfg) ->
  Forall (fun b => Forall (rec_ok (cfg_fields cfg)) b) bs ->
  sizes_ok cfg bs ->
  check_file decompress (file_of_batches compress cfg bs) = inr (file_view_of cfg bs).
Proof.
  intros Hcd Hty Hcols Hmax Hschema Hrecs (Hsz & Hfm & Hflen).
  rewrite file_of_batches_eq, (N.mod_small _ _ Hflen).
  apply check_file_layout.
  - exact Hflen.
  - rewrite <- (app_nil_r (enc_file_meta _)). apply dec_enc_file_meta, Hfm.
  - exact Hschema.
  - eapply (check_row_groups_written _ _ cfg Hcd Hty Hcols Hmax bs 4); [|reflexivity|lia].
    rewrite Forall_forall in *. intros b Hb. split; [apply Hrecs|apply Hsz]; exact Hb.
  - cbn [footer_meta fm_num_rows]. rewrite rg_views_rows. unfold batch_rgs. rewrite map_map.
    reflexivity.
Qed.

(** ** C02: every written file is structurally valid with a truthful footer *)

(** the struct shape: non-empty groups, distinct sibling names, at most 15
    optional/repeated steps on any path (level widths 1..4 bits) *)
Definition shape_ok (fs : list field) : Prop :=
  ty_okb (TGroup fs) = true /\ names_okb (TGroup fs) = true /\ Forall col_ok (columns fs).

Theorem written_file_valid cfg bs :
  (1 <= cfg_max cfg)%nat -> codec_ok (cfg_codec cfg) -> shape_ok (cfg_fields cfg) ->
  Forall (fun b => Forall (rec_ok (cfg_fields cfg)) b) bs ->
  sizes_ok cfg bs ->
  exists v,
    check_file decompress (file_of_batches compress cfg bs) = inr v /\
    fv_fields v = cfg_fields cfg /\
    fv_cols v = columns (cfg_fields cfg) /\
    map rv_rows (fv_rgs v) = map (@nlen value) bs /\
    map rv_records (fv_rgs v) = bs /\
    view_records v = concat bs /\
    all_pages (fun pv => pv_records pv <= N.of_nat (cfg_max cfg) /\ pv_stats_ok pv = true) (fv_rgs v).
Proof.
  intros Hmax Hcd (Hty & Hnm & Hcols) Hrecs Hsz.
  exists (file_view_of cfg bs).
  split.
  { apply check_file_written; try assumption. apply parse_schema_of; assumption. }
  unfold file_view_of, view_records. cbn [fv_fields fv_cols fv_rgs].
  split; [reflexivity|]. split; [reflexivity|].
  split; [apply rg_views_rows|]. split; [apply rg_views_records|].
  split; [rewrite flat_map_concat_map, rg_views_records; reflexivity|].
  apply rg_views_pages; assumption.
Qed.

Definition op_ok (fs : list field) (o : op) : Prop :=
  match o with OpAdd r => rec_ok fs r | OpWrite => True end.

Lemma batches_of_ok fs h : forall pending,
  Forall (op_ok fs) h -> Forall (rec_ok fs) pending ->
  Forall (fun b => Forall (rec_ok fs) b) (batches_of h pending).
Proof.
  induction h as [|o h IH]; intros pending Hh Hp; [constructor|].
  pose proof (Forall_inv Hh) as Ho. pose proof (Forall_inv_tail Hh) as Hh'.
  destruct o as [r|]; cbn [batches_of].
  - apply IH; [exact Hh'|]. apply Forall_app. split; [exact Hp|]. constructor; [exact Ho|constructor].
  - constructor; [exact Hp|]. apply IH; [exact Hh'|constructor].
Qed.

Corollary written_history_valid cfg h :
  (1 <= cfg_max cfg)%nat -> codec_ok (cfg_codec cfg) -> shape_ok (cfg_fields cfg) ->
  Forall (op_ok (cfg_fields cfg)) h ->
  sizes_ok cfg (nonempty_batches h) ->
  exists v,
    check_file decompress (file_bytes compress cfg h) = inr v /\
    fv_fields v = cfg_fields cfg /\
    map rv_records (fv_rgs v) = nonempty_batches h /\
    view_records v = concat (nonempty_batches h) /\
    all_pages (fun pv => pv_records pv <= N.of_nat (cfg_max cfg) /\ pv_stats_ok pv = true) (fv_rgs v).
Proof.
  intros Hmax Hcd Hshape Hh Hsz. rewrite file_bytes_batches.
  destruct (written_file_valid cfg (nonempty_batches h) Hmax Hcd Hshape) as (v & H1 & H2 & _ & _ & H5 & H6 & H7).
  - unfold nonempty_batches.
    pose proof (batches_of_ok (cfg_fields cfg) h [] Hh (Forall_nil _)) as Hall.
    rewrite Forall_forall in *. intros b Hb. apply filter_In in Hb. apply Hall. tauto.
  - exact Hsz.
  - exists v. auto.
Qed.

Definition col_okb (c : col) : bool := (max_def c <=? 15) && (max_rep c <=? 15).

Definition shape_okb (fs : list field) : bool :=
  ty_okb (TGroup fs) && names_okb (TGroup fs) && forallb col_okb (columns fs).

Lemma shape_okb_sound fs : shape_okb fs = true -> shape_ok fs.
Proof.
  unfold shape_okb, shape_ok. intros H.
  apply andb_prop in H. destruct H as [H H3]. apply andb_prop in H. destruct H as [H1 H2].
  split; [exact H1|]. split; [exact H2|].
  revert H3. apply forallb_impl. intros c. unfold col_okb, col_ok. lia.
Qed.

Definition page_sizes_okb (codec : Z) (c : col) (es : list entry) : bool :=
  (N.of_nat (length es) + 8 <=? 2 ^ 31) && (nlen (page_payload c es) <? 2 ^ 31)
  && (nlen (compress codec (page_payload c es)) <? 2 ^ 31).

Definition batch_sizes_okb (cfg : config) (b : list value) : bool :=
  forallb (fun ce => forallb (page_sizes_okb (cfg_codec cfg) (fst ce)) (snd ce)) (batch_cess cfg b).

Definition sizes_okb (cfg : config) (bs : list (list value)) : bool :=
  forallb (batch_sizes_okb cfg) bs
  && file_meta_ok (footer_meta cfg (batch_rgs cfg bs))
  && (nlen (enc_file_meta (footer_meta cfg (batch_rgs cfg bs))) <? 2 ^ 32).

Lemma sizes_okb_sound cfg bs : sizes_okb cfg bs = true -> sizes_ok cfg bs.
Proof.
  unfold sizes_okb, sizes_ok. intros H.
  apply andb_prop in H. destruct H as [H H3]. apply andb_prop in H. destruct H as [H1 H2].
  split; [|split; [exact H2|apply N.ltb_lt; exact H3]].
  revert H1. apply forallb_impl. intros b. apply forallb_impl. intros ce.
  apply forallb_impl. intros es. unfold page_sizes_okb, page_sizes_ok. lia.
Qed.

End WithCodec.

(** ** A concrete small configuration satisfies every side condition *)

Module Tiny.
Definition cmp : Z -> bytes -> bytes := fun _ b => b.
Definition dcmp : Z -> bytes -> option bytes := fun _ b => Some b.
Definition fs0 : list field := [ ([97], Opt, TLeaf PInt32); ([98], Req, TLeaf PString) ].
Definition cfg0 : config := {| cfg_fields := fs0; cfg_max := 1; cfg_codec := CODEC_UNCOMPRESSED |}.
Definition rA : value := VGroup [VNum 5; VStr [104; 105]].
Definition rB : value := VGroup [VNull; VStr []].

Lemma cmp_dcmp c x : In c [CODEC_UNCOMPRESSED; CODEC_SNAPPY; CODEC_GZIP] -> dcmp c (cmp c x) = Some x.
Proof. reflexivity. Qed.

Example tiny_sizes_ok : shape_okb fs0 = true /\ sizes_okb cmp cfg0 [[rA; rB]] = true.
Proof. vm_compute. split; reflexivity. Qed.

Example tiny_file_valid :
  exists v, check_file dcmp (file_of_batches cmp cfg0 [[rA; rB]]) = inr v /\
            view_records v = [rA; rB] /\ map rv_rows (fv_rgs v) = [2].
Proof.
  destruct (written_file_valid cmp dcmp cmp_dcmp cfg0 [[rA; rB]]) as (v & H1 & _ & _ & H4 & _ & H6 & _).
  - cbn [cfg0 cfg_max]. lia.
  - left. reflexivity.
  - exact (shape_okb_sound _ (proj1 tiny_sizes_ok)).
  - repeat constructor.
  - exact (sizes_okb_sound _ _ _ (proj2 tiny_sizes_ok)).
  - exists v. split; [exact H1|]. split; [exact H6|exact H4].
Qed.

Example tiny_page :
  let c := {| c_path := [[97]]; c_reps := [Opt]; c_prim := PInt32 |} in
  let es := column_entries fs0 0 [rA; rB] in
  let p := make_page cmp 0%Z c es in
  check_page dcmp c 0%Z 17 (pg_header_bytes p ++ pg_body p ++ [1; 2; 3]) =
  inr (page_view_of 17 p es, page_len p).
Proof. vm_compute. reflexivity. Qed.

Example tiny_file_view :
  check_file dcmp (file_of_batches cmp cfg0 [[rA; rB]]) = inr (file_view_of cmp cfg0 [[rA; rB]]).
Proof. vm_compute. reflexivity. Qed.
End Tiny.

Print Assumptions check_pages_written.
Print Assumptions check_chunk_written.
Print Assumptions check_chunks_written.
Print Assumptions check_row_group_written.
Print Assumptions check_row_groups_written.
Print Assumptions check_file_written.
Print Assumptions written_file_valid.
Print Assumptions written_history_valid.
