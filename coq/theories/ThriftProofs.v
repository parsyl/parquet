(** * ThriftProofs: the generic compact-protocol decoder reads back what the
    encoder of Thrift.v writes, and the encoder only produces bytes. *)
From Coq Require Import List NArith ZArith Lia Bool Arith.
From Coq Require Import ZifyN ZifyNat ZifyBool.
From PQ Require Import Bytes Varint VarintProofs Thrift.
Import ListNotations.
Local Open Scope N_scope.

Section TvalInd.
  Variable P : tval -> Prop.
  Hypothesis HBool : forall b, P (TBool b).
  Hypothesis HI8 : forall z, P (TI8 z).
  Hypothesis HI16 : forall z, P (TI16 z).
  Hypothesis HI32 : forall z, P (TI32 z).
  Hypothesis HI64 : forall z, P (TI64 z).
  Hypothesis HDouble : forall bits, P (TDouble bits).
  Hypothesis HBin : forall bs, P (TBin bs).
  Hypothesis HList : forall elt vs, Forall P vs -> P (TList elt vs).
  Hypothesis HStruct : forall fs, Forall (fun p => P (snd p)) fs -> P (TStruct fs).

  Fixpoint tval_ind' (v : tval) : P v :=
    match v with
    | TBool b => HBool b
    | TI8 z => HI8 z
    | TI16 z => HI16 z
    | TI32 z => HI32 z
    | TI64 z => HI64 z
    | TDouble bits => HDouble bits
    | TBin bs => HBin bs
    | TList elt vs =>
        HList elt vs
          ((fix go (l : list tval) : Forall P l :=
              match l with
              | [] => Forall_nil P
              | x :: r => Forall_cons x (tval_ind' x) (go r)
              end) vs)
    | TStruct fs =>
        HStruct fs
          ((fix go (l : list (N * tval)) : Forall (fun p => P (snd p)) l :=
              match l with
              | [] => Forall_nil _
              | p :: r => Forall_cons p (tval_ind' (snd p)) (go r)
              end) fs)
    end.
End TvalInd.

Lemma tenc_val_struct fs : tenc_val (TStruct fs) = tenc_fields 0 fs.
Proof.
  cbn [tenc_val].
  match goal with
  | |- ?F 0 fs = _ => enough (Hg : forall last, F last fs = tenc_fields last fs) by apply Hg
  end.
  induction fs as [|[id x] r IH]; intros last; cbn [tenc_fields]; [reflexivity|].
  rewrite IH. reflexivity.
Qed.

Lemma tenc_val_list elt vs : tenc_val (TList elt vs) = lhdr elt (nlen vs) ++ tenc_elems vs.
Proof. reflexivity. Qed.

Lemma tenc_elems_cons v vs : tenc_elems (v :: vs) = tenc_val v ++ tenc_elems vs.
Proof. reflexivity. Qed.

Lemma wf_tval_struct fs : wf_tval (TStruct fs) = wf_fields_from 0 fs.
Proof.
  cbn [wf_tval].
  match goal with
  | |- ?F 0 fs = _ => enough (Hg : forall last, F last fs = wf_fields_from last fs) by apply Hg
  end.
  induction fs as [|[id x] r IH]; intros last; cbn [wf_fields_from]; [reflexivity|].
  rewrite IH. reflexivity.
Qed.

Lemma wf_tval_list elt vs :
  wf_tval (TList elt vs) =
  (1 <=? elt) && (elt <=? 12) && (nlen vs <? len_lim)
  && forallb (fun x => elt_matches elt x && wf_tval x) vs.
Proof. reflexivity. Qed.

Lemma wf_tval_list_inv elt vs :
  wf_tval (TList elt vs) = true ->
  1 <= elt <= 12 /\ (nlen vs <? len_lim) = true /\
  forallb (fun x => elt_matches elt x && wf_tval x) vs = true.
Proof.
  rewrite wf_tval_list.
  intros [[[He1%N.leb_le He2%N.leb_le]%andb_prop Hlen]%andb_prop Hall]%andb_prop. auto.
Qed.

Lemma wf_fields_from_cons last id x r :
  wf_fields_from last ((id, x) :: r) = true ->
  last < id /\ id <= max_field_id /\ wf_tval x = true /\ wf_fields_from id r = true.
Proof.
  cbn [wf_fields_from].
  intros [[[Hlt%N.ltb_lt Hmax%N.leb_le]%andb_prop Hx]%andb_prop Hr]%andb_prop. auto.
Qed.

Lemma wf_elems_cons elt v r :
  forallb (fun x => elt_matches elt x && wf_tval x) (v :: r) = true ->
  elt_matches elt v = true /\ wf_tval v = true /\
  forallb (fun x => elt_matches elt x && wf_tval x) r = true.
Proof. cbn [forallb]. intros [[Hem Hv]%andb_prop Hr]%andb_prop. auto. Qed.

Lemma tdec_fields_S f last h r :
  tdec_fields (S f) last (h :: r) =
  if h mod 16 =? 0 then Some ([], r)
  else
    match dec_field_id last h r with
    | None => None
    | Some (id, r1) =>
        match (if (h mod 16 =? 1) || (h mod 16 =? 2) then Some (TBool (h mod 16 =? 1), r1)
               else tdec_val_gen (tdec_fields f) (tdec_elems f) (h mod 16) r1) with
        | None => None
        | Some (v, r2) =>
            match tdec_fields f id r2 with
            | None => None
            | Some (fs, r3) => Some ((id, v) :: fs, r3)
            end
        end
    end.
Proof. reflexivity. Qed.

Lemma tdec_elems_S f elt n bs :
  tdec_elems (S f) elt n bs =
  if n =? 0 then Some ([], bs)
  else
    match tdec_val_gen (tdec_fields f) (tdec_elems f) elt bs with
    | None => None
    | Some (v, r1) =>
        match tdec_elems f elt (n - 1) r1 with
        | None => None
        | Some (vs, r2) => Some (v :: vs, r2)
        end
    end.
Proof. reflexivity. Qed.

Lemma ctype_range v : 1 <= ctype v <= 12.
Proof. destruct v as [[|]| | | | | | | |]; cbn [ctype]; lia. Qed.

Lemma fhdr_len last id ty : (1 <= length (fhdr last id ty))%nat.
Proof.
  unfold fhdr. destruct ((last <? id) && (id - last <=? 15)); apply le_n_S, Nat.le_0_l.
Qed.

Lemma lhdr_len elt n : (1 <= length (lhdr elt n))%nat.
Proof. unfold lhdr. destruct (n <=? 14); apply le_n_S, Nat.le_0_l. Qed.

Lemma tenc_fields_len last fs : (1 <= length (tenc_fields last fs))%nat.
Proof.
  destruct fs as [|[id x] r]; cbn [tenc_fields length]; [lia|].
  rewrite app_length. pose proof (fhdr_len last id (ctype x)). lia.
Qed.

Lemma tenc_val_len v : (1 <= length (tenc_val v))%nat.
Proof.
  destruct v as [b|z|z|z|z|bits|bs|elt vs|fs].
  1-2: cbn [tenc_val length]; lia.
  1-3: apply uleb_enc_len.
  - cbn [tenc_val]. rewrite le_enc_length. lia.
  - cbn [tenc_val]. rewrite app_length. pose proof (uleb_enc_len (nlen bs)). lia.
  - rewrite tenc_val_list, app_length. pose proof (lhdr_len elt (nlen vs)). lia.
  - rewrite tenc_val_struct. apply tenc_fields_len.
Qed.

Lemma in_range_spec lo hi z : in_range lo hi z = true -> (lo <= z < hi)%Z.
Proof. unfold in_range. lia. Qed.

Lemma zigzag_in_range k z : in_range (- k) k z = true -> zigzag z < Z.to_N (2 * k).
Proof. unfold in_range, zigzag. destruct (Z.ltb_spec z 0); lia. Qed.

Lemma zigzag_i16 z : i16_ok z = true -> zigzag z < i16_lim.
Proof. apply (zigzag_in_range 32768). Qed.

Lemma zigzag_i32 z : i32_ok z = true -> zigzag z < i32_lim.
Proof. apply (zigzag_in_range 2147483648). Qed.

Lemma zigzag_i64 z : i64_ok z = true -> zigzag z < i64_lim.
Proof. apply (zigzag_in_range 9223372036854775808). Qed.

Lemma dec_zz_enc lim z rest :
  zigzag z < lim -> dec_zz lim (uleb_enc (zigzag z) ++ rest) = Some (z, rest).
Proof.
  intros Hz. unfold dec_zz. rewrite uleb_dec_enc.
  destruct (N.ltb_spec (zigzag z) lim) as [_|Hge]; [|lia].
  rewrite unzigzag_zigzag. reflexivity.
Qed.

Lemma take_bytes_app s rest : take_bytes (nlen s) (s ++ rest) = Some (s, rest).
Proof.
  unfold take_bytes. rewrite nlen_app.
  destruct (N.leb_spec (nlen s) (nlen s + nlen rest)) as [_|Hgt]; [|lia].
  unfold nlen. rewrite Nat2N.id, firstn_app_exact, skipn_app_exact. reflexivity.
Qed.

Lemma nibble_pack a t : t < 16 -> (a * 16 + t) mod 16 = t /\ (a * 16 + t) / 16 = a.
Proof.
  intros Ht. split.
  - rewrite N.add_comm, N.mod_add by discriminate. apply N.mod_small, Ht.
  - rewrite N.div_add_l, (N.div_small t 16 Ht) by discriminate. apply N.add_0_r.
Qed.

Lemma fhdr_split last id ty :
  id <= max_field_id -> 1 <= ty <= 12 ->
  exists h r,
    fhdr last id ty = h :: r /\ h mod 16 = ty /\
    forall tail, dec_field_id last h (r ++ tail) = Some (id, tail).
Proof.
  unfold max_field_id. intros Hmax Hty. assert (Ht : ty < 16) by lia. unfold fhdr.
  destruct ((last <? id) && (id - last <=? 15)) eqn:Hc.
  - destruct (nibble_pack (id - last) ty Ht) as [Hm Hd].
    exists ((id - last) * 16 + ty), []. split; [reflexivity|]. split; [exact Hm|].
    intros tail. unfold dec_field_id, max_field_id. cbn [app]. rewrite Hd. clear Hm Hd.
    destruct (N.eqb_spec (id - last) 0) as [H0|_]; [lia|].
    replace (last + (id - last)) with id by lia.
    destruct (N.leb_spec id 32767) as [_|Hgt]; [reflexivity | lia].
  - exists ty, (uleb_enc (zigzag (Z.of_N id))). split; [reflexivity|].
    split; [apply N.mod_small, Ht|].
    intros tail. unfold dec_field_id, max_field_id. rewrite (N.div_small ty 16 Ht). cbn [N.eqb].
    rewrite dec_zz_enc by (apply zigzag_i16; unfold i16_ok, in_range; lia).
    destruct ((0 <=? Z.of_N id) && (Z.of_N id <=? Z.of_N 32767))%Z eqn:Hr; [|lia].
    rewrite N2Z.id. reflexivity.
Qed.

Lemma lhdr_split elt n :
  1 <= elt <= 12 ->
  exists h r,
    lhdr elt n = h :: r /\ h mod 16 = elt /\
    forall tail,
      (if h / 16 =? 15 then uleb_dec (r ++ tail) else Some (h / 16, r ++ tail)) = Some (n, tail).
Proof.
  intros He. assert (Ht : elt < 16) by lia. unfold lhdr. destruct (N.leb_spec n 14) as [Hle|Hgt].
  - destruct (nibble_pack n elt Ht) as [Hm Hd].
    exists (n * 16 + elt), []. split; [reflexivity|]. split; [exact Hm|].
    intros tail. rewrite Hd. clear Hm Hd.
    destruct (N.eqb_spec n 15) as [H15|_]; [lia | reflexivity].
  - destruct (nibble_pack 15 elt Ht) as [Hm Hd].
    exists (240 + elt), (uleb_enc n). split; [reflexivity|]. split; [exact Hm|].
    intros tail. change (240 + elt) with (15 * 16 + elt). rewrite Hd. apply uleb_dec_enc.
Qed.

Lemma tdec_val_gen_elt df de ty v bs :
  elt_matches ty v = true -> tdec_val_gen df de ty bs = tdec_val_gen df de (ctype v) bs.
Proof.
  destruct v as [[|]| | | | | | | |]; cbn [elt_matches ctype]; intros H;
    try (apply N.eqb_eq in H; rewrite H; reflexivity);
    (apply orb_true_iff in H; destruct H as [H|H]; apply N.eqb_eq in H; rewrite H; reflexivity).
Qed.

Lemma fval_cases x :
  (exists b, x = TBool b) \/
  (tenc_fval x = tenc_val x /\ ((ctype x =? 1) || (ctype x =? 2)) = false
   /\ elt_matches (ctype x) x = true).
Proof.
  destruct x as [b|z|z|z|z|bits|bs|elt vs|fs];
    [left; exists b; reflexivity | right; repeat split; reflexivity ..].
Qed.

Definition val_ok (v : tval) : Prop :=
  forall f ty rest,
    wf_tval v = true -> elt_matches ty v = true ->
    (length (tenc_val v) <= f)%nat ->
    tdec_val_gen (tdec_fields f) (tdec_elems f) ty (tenc_val v ++ rest) = Some (v, rest).

Lemma fields_ok fs :
  Forall (fun p => val_ok (snd p)) fs ->
  forall fuel last rest,
    wf_fields_from last fs = true ->
    (length (tenc_fields last fs) <= fuel)%nat ->
    tdec_fields fuel last (tenc_fields last fs ++ rest) = Some (fs, rest).
Proof.
  induction 1 as [|[id x] r Hx Hr IH]; intros fuel last rest Hwf Hfuel.
  - cbn [tenc_fields length] in Hfuel. destruct fuel as [|f]; [lia|].
    cbn [tenc_fields app]. rewrite tdec_fields_S. reflexivity.
  - cbn [snd] in Hx. destruct (wf_fields_from_cons _ _ _ _ Hwf) as (Hlt & Hmax & Hwfx & Hwfr).
    destruct (fhdr_split last id (ctype x) Hmax (ctype_range x)) as (h & hr & Hh & Hty & Hid).
    cbn [tenc_fields] in Hfuel |- *.
    rewrite Hh in Hfuel |- *. rewrite !app_length in Hfuel. cbn [length] in Hfuel.
    destruct fuel as [|f]; [lia|].
    rewrite <- !app_assoc. cbn [app].
    rewrite tdec_fields_S, Hty, Hid. clear h Hh Hty Hid.
    destruct (fval_cases x) as [[b ->]|(Hfv & Hnb & Hem)].
    + cbn [tenc_fval app length] in Hfuel.
      destruct b; cbn [tenc_fval app ctype N.eqb Pos.eqb orb];
        (rewrite IH by (first [exact Hwfr | lia])); reflexivity.
    + pose proof (ctype_range x) as Hct.
      destruct (N.eqb_spec (ctype x) 0) as [H0|_]; [lia|].
      rewrite Hnb, Hfv. rewrite Hfv in Hfuel.
      rewrite (Hx f (ctype x) _ Hwfx Hem), IH by (first [exact Hwfr | lia]). reflexivity.
Qed.

Lemma elems_ok vs :
  Forall val_ok vs ->
  forall fuel elt rest,
    forallb (fun x => elt_matches elt x && wf_tval x) vs = true ->
    (length (tenc_elems vs) < fuel)%nat ->
    tdec_elems fuel elt (nlen vs) (tenc_elems vs ++ rest) = Some (vs, rest).
Proof.
  induction 1 as [|v r Hv Hr IH]; intros fuel elt rest Hwf Hfuel.
  - destruct fuel as [|f]; [lia|]. rewrite tdec_elems_S. reflexivity.
  - destruct fuel as [|f]; [lia|].
    destruct (wf_elems_cons _ _ _ Hwf) as (Hem & Hwfv & Hwfr).
    rewrite tenc_elems_cons in Hfuel |- *. rewrite app_length in Hfuel.
    pose proof (tenc_val_len v) as Hlen.
    rewrite tdec_elems_S.
    assert (Hn : nlen (v :: r) = nlen r + 1) by (unfold nlen; cbn [length]; lia).
    rewrite Hn.
    destruct (N.eqb_spec (nlen r + 1) 0) as [H0|_]; [lia|].
    replace (nlen r + 1 - 1) with (nlen r) by lia.
    rewrite <- app_assoc.
    rewrite (Hv f elt _ Hwfv Hem), IH by (first [exact Hwfr | lia]). reflexivity.
Qed.

Lemma val_ok_all v : val_ok v.
Proof.
  induction v as [b|z|z|z|z|bits|bs|elt vs IH|fs IH] using tval_ind';
    intros f ty rest Hwf Hem Hfuel; rewrite (tdec_val_gen_elt _ _ _ _ _ Hem); clear ty Hem.
  2-7: cbn [tenc_val wf_tval ctype] in Hwf |- *; unfold tdec_val_gen; cbv beta iota.
  3-5: rewrite dec_zz_enc by auto using zigzag_i16, zigzag_i32, zigzag_i64; reflexivity.
  - destruct b; reflexivity.
  - (* i8 *)
    cbn [app]. apply in_range_spec in Hwf.
    rewrite signZ_wrapN; [reflexivity | lia |].
    change (2 ^ (Z.of_N 8 - 1))%Z with 128%Z. lia.
  - (* double *)
    rewrite take_le_enc; [reflexivity|].
    change (256 ^ N.of_nat 8) with i64_lim. apply N.ltb_lt. exact Hwf.
  - (* binary *)
    unfold bin_ok in Hwf. apply andb_prop in Hwf. destruct Hwf as [_ Hlen].
    rewrite <- app_assoc, uleb_dec_enc, Hlen, take_bytes_app. reflexivity.
  - (* list *)
    destruct (wf_tval_list_inv _ _ Hwf) as (He & Hlen & Hall).
    destruct (lhdr_split elt (nlen vs) He) as (h & hr & Hh & Helt & Hsz).
    rewrite tenc_val_list in Hfuel |- *. rewrite Hh in Hfuel |- *.
    rewrite app_length in Hfuel. cbn [length] in Hfuel.
    rewrite <- app_assoc. cbn [app ctype].
    unfold tdec_val_gen. cbv beta iota zeta.
    rewrite Hsz, Hlen, Helt. clear h Hh Helt Hsz.
    rewrite (elems_ok vs IH) by (first [exact Hall | lia]). reflexivity.
  - (* struct *)
    rewrite wf_tval_struct in Hwf. rewrite tenc_val_struct in Hfuel |- *.
    cbn [ctype]. unfold tdec_val_gen. cbv beta iota.
    rewrite (fields_ok fs IH) by (first [exact Hwf | lia]). reflexivity.
Qed.

(** Main theorem: any fuel that is at least the length of the encoding is
    enough (the decoder spends one unit of fuel per field and per list
    element, and each of those occupies at least one byte). *)
Theorem tdec_tenc fuel fs rest :
  wf_fields fs = true ->
  (length (tenc_struct fs) <= fuel)%nat ->
  tdec_struct fuel (tenc_struct fs ++ rest) = Some (fs, rest).
Proof.
  intros Hwf Hfuel. unfold tdec_struct, tenc_struct.
  apply fields_ok; [| exact Hwf | exact Hfuel].
  apply Forall_forall. intros p _. apply val_ok_all.
Qed.

Corollary tdec_tenc_default fs rest :
  wf_fields fs = true -> tdec (tenc_struct fs ++ rest) = Some (fs, rest).
Proof.
  intros Hwf. unfold tdec. apply tdec_tenc; [exact Hwf|].
  rewrite app_length. lia.
Qed.

(** ** The encoder produces bytes *)

Lemma is_byte_cons b bs : b < 256 -> wf_bytes bs -> wf_bytes (b :: bs).
Proof. exact (@Forall_cons _ is_byte b bs). Qed.

Lemma fhdr_wf last id ty : ty <= 12 -> wf_bytes (fhdr last id ty).
Proof.
  intros Hty. unfold fhdr. destruct ((last <? id) && (id - last <=? 15)) eqn:Hc.
  - apply is_byte_cons; [lia | apply wf_bytes_nil].
  - apply is_byte_cons; [lia | apply uleb_enc_wf].
Qed.

Lemma lhdr_wf elt n : elt <= 12 -> wf_bytes (lhdr elt n).
Proof.
  intros He. unfold lhdr. destruct (N.leb_spec n 14) as [Hle|Hgt].
  - apply is_byte_cons; [lia | apply wf_bytes_nil].
  - apply is_byte_cons; [lia | apply uleb_enc_wf].
Qed.

Definition val_wfb (v : tval) : Prop := wf_tval v = true -> wf_bytes (tenc_val v).

Lemma fields_wfb fs :
  Forall (fun p => val_wfb (snd p)) fs ->
  forall last, wf_fields_from last fs = true -> wf_bytes (tenc_fields last fs).
Proof.
  induction 1 as [|[id x] r Hx Hr IH]; intros last Hwf; cbn [tenc_fields].
  - apply is_byte_cons; [lia | apply wf_bytes_nil].
  - cbn [snd] in Hx. destruct (wf_fields_from_cons _ _ _ _ Hwf) as (_ & _ & Hwfx & Hwfr).
    apply wf_bytes_app. split; [apply fhdr_wf; apply ctype_range|].
    apply wf_bytes_app. split; [|apply IH; exact Hwfr].
    destruct (fval_cases x) as [[b Hb]|(Hfv & _ & _)].
    + subst x. apply wf_bytes_nil.
    + rewrite Hfv. apply Hx. exact Hwfx.
Qed.

Lemma elems_wfb vs :
  Forall val_wfb vs ->
  forall elt, forallb (fun x => elt_matches elt x && wf_tval x) vs = true ->
  wf_bytes (tenc_elems vs).
Proof.
  induction 1 as [|v r Hv Hr IH]; intros elt Hwf.
  - apply wf_bytes_nil.
  - destruct (wf_elems_cons _ _ _ Hwf) as (_ & Hwfv & Hwfr).
    rewrite tenc_elems_cons. apply wf_bytes_app. split; [apply Hv; exact Hwfv|].
    apply (IH elt). exact Hwfr.
Qed.

Lemma val_wfb_all v : val_wfb v.
Proof.
  induction v as [b|z|z|z|z|bits|bs|elt vs IH|fs IH] using tval_ind';
    unfold val_wfb; intros Hwf.
  3-5: cbn [tenc_val]; apply uleb_enc_wf.
  - cbn [tenc_val]. apply is_byte_cons; [destruct b; lia | apply wf_bytes_nil].
  - cbn [tenc_val]. apply is_byte_cons; [|apply wf_bytes_nil].
    pose proof (wrapN_bound 8 z) as Hb. change (2 ^ 8) with 256 in Hb. exact Hb.
  - cbn [tenc_val]. apply le_enc_wf.
  - cbn [tenc_val wf_tval] in Hwf |- *. unfold bin_ok in Hwf.
    apply andb_prop in Hwf. destruct Hwf as [Hb _].
    apply wf_bytes_app. split; [apply uleb_enc_wf | apply wf_bytesb_spec; exact Hb].
  - destruct (wf_tval_list_inv _ _ Hwf) as (He & _ & Hall).
    rewrite tenc_val_list. apply wf_bytes_app. split; [apply lhdr_wf, He|].
    apply (elems_wfb vs IH elt). exact Hall.
  - rewrite wf_tval_struct in Hwf. rewrite tenc_val_struct.
    apply (fields_wfb fs IH). exact Hwf.
Qed.

Theorem tenc_struct_wf_bytes fs : wf_fields fs = true -> wf_bytes (tenc_struct fs).
Proof.
  intros Hwf. unfold tenc_struct. apply fields_wfb; [|exact Hwf].
  apply Forall_forall. intros p _. apply val_wfb_all.
Qed.

(** ** Byte strings produced by the library

    [ex_raw*_bytes] are the output of apache/thrift v0.18.1 TCompactProtocol
    driven by hand (WriteStructBegin / WriteFieldBegin / WriteBool / ...) for
    the field lists above them: bool fields, i8, i16, double, list<bool>
    (element type nibble 1, one byte per element), field id deltas of exactly
    15 and 16, the largest field id, nested structs restoring the last field
    id, lists of lists, a 15 element list. *)

Definition ex_raw1 : list (N * tval) :=
  ([(1, TBool true); (2, TI8 (-3)); (3, TI16 (-300)); (4, TDouble 4609434218613702656); (5,
  TList 1 [TBool true; TBool false; TBool true]); (20, TI64 5); (36, TI32 7); (37, TBool false);
  (32767, TBin [1; 2])])%N.
Definition ex_raw1_bytes : bytes :=
  [17; 19; 253; 20; 215; 4; 23; 0; 0; 0; 0; 0; 0; 248; 63; 25; 49; 1; 2; 1; 246; 10; 5; 72; 14;
  18; 8; 254; 255; 3; 2; 1; 2; 0]%N.
Example ex_raw1_enc : tenc_struct ex_raw1 = ex_raw1_bytes.
Proof. vm_compute. reflexivity. Qed.
Example ex_raw1_wf : wf_fields ex_raw1 = true.
Proof. vm_compute. reflexivity. Qed.
Example ex_raw1_dec : tdec (ex_raw1_bytes ++ [5]) = Some (ex_raw1, [5]).
Proof. rewrite <- ex_raw1_enc. apply tdec_tenc_default, ex_raw1_wf. Qed.

Definition ex_raw2 : list (N * tval) :=
  ([(10, TStruct [(1, TI32 1); (100, TStruct [])]); (11, TList 9 [TList 5 [TI32 1; TI32 (-1)];
  TList 5 []]); (12, TList 7 [TDouble 0; TDouble 13830554455654793216]); (13, TList 3 [TI8 1;
  TI8 2; TI8 3; TI8 4; TI8 5; TI8 6; TI8 7; TI8 8; TI8 9; TI8 10; TI8 11; TI8 12; TI8 13; TI8
  14; TI8 (-128)]); (14, TList 12 [TStruct [(2, TBool true)]; TStruct []])])%N.
Definition ex_raw2_bytes : bytes :=
  [172; 21; 2; 12; 200; 1; 0; 0; 25; 41; 37; 2; 1; 5; 25; 39; 0; 0; 0; 0; 0; 0; 0; 0; 0; 0; 0;
  0; 0; 0; 240; 191; 25; 243; 15; 1; 2; 3; 4; 5; 6; 7; 8; 9; 10; 11; 12; 13; 14; 128; 25; 44;
  33; 0; 0; 0]%N.
Example ex_raw2_enc : tenc_struct ex_raw2 = ex_raw2_bytes.
Proof. vm_compute. reflexivity. Qed.
Example ex_raw2_wf : wf_fields ex_raw2 = true.
Proof. vm_compute. reflexivity. Qed.
Example ex_raw2_dec : tdec (ex_raw2_bytes ++ [5]) = Some (ex_raw2, [5]).
Proof. rewrite <- ex_raw2_enc. apply tdec_tenc_default, ex_raw2_wf. Qed.

Print Assumptions tdec_tenc.
Print Assumptions tdec_tenc_default.
Print Assumptions tenc_struct_wf_bytes.
