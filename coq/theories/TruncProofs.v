(** * TruncProofs: what the structure of the trailer alone decides about a
    truncated file (C11), and the refutation of the unconditional statement. *)
From Coq Require Import List NArith ZArith Lia Bool Arith.
From Coq Require Import ZifyN ZifyNat ZifyBool.
From PQ Require Import Bytes Schema Dremel Rle Plain Stats MetaTypes Thrift Meta Writer Io Reader IoProofs ReaderIoProofs.
Import ListNotations.
Local Open Scope N_scope.

Section Trunc.
Variable decompress : Z -> bytes -> option bytes.

Lemma open_refused fs file sched :
  stored_footer file = None -> read_all_src decompress fs (mk_src file sched None) = open_failed false.
Proof.
  intros H. pose proof (open_footer_spec fs (mk_src file sched None) eq_refl) as Ho.
  cbn [mk_src s_file] in Ho. rewrite H in Ho. unfold read_all_src. rewrite Ho. reflexivity.
Qed.

(** Seek(-8, io.SeekEnd) fails *)
Theorem open_short fs file sched :
  (length file < 8)%nat ->
  read_all_src decompress fs (mk_src file sched None) = open_failed false.
Proof.
  intros Hlen. apply open_refused. unfold stored_footer.
  destruct (Nat.ltb_spec (length file) 8); [reflexivity | lia].
Qed.

(** the second Seek, to before the start of the file, fails (no panic) *)
Theorem open_bad_length fs file sched :
  (8 <= length file)%nat ->
  (Z.of_N (le_dec (firstn 4 (skipn (length file - 8) file))) + 8 > Z.of_nat (length file))%Z ->
  read_all_src decompress fs (mk_src file sched None) = open_failed false.
Proof.
  intros Hlen Hbad. apply open_refused. unfold stored_footer.
  destruct (length file <? 8)%nat; [reflexivity|].
  destruct (Nat.ltb_spec (length file) (8 + N.to_nat (trailer_len file))); [reflexivity|].
  unfold trailer_len in *. lia.
Qed.

(** Every file the constructor accepts has a decodable footer where the
    trailer's length field says it is (the magic itself is not checked) *)
Theorem open_ok_trailer fs file sched :
  o_open_ok (read_all_src decompress fs (mk_src file sched None)) = true ->
  (8 <= length file)%nat /\
  (Z.of_N (le_dec (firstn 4 (skipn (length file - 8) file))) + 8 <= Z.of_nat (length file))%Z /\
  exists fm rest,
    dec_file_meta (skipn (length file - 8 - N.to_nat (le_dec (firstn 4 (skipn (length file - 8) file)))) file) = Some (fm, rest).
Proof.
  intros Hok. destruct (stored_footer file) as [fm|] eqn:Hft.
  - destruct (stored_footer_some file fm Hft) as (Hlen & HL & rest & Hdec). unfold trailer_len in *.
    split; [exact Hlen|]. split; [lia|]. exists fm, rest. exact Hdec.
  - rewrite (open_refused fs file sched Hft) in Hok. discriminate Hok.
Qed.

End Trunc.

(** ** The unconditional statement is false for any footer-last format *)

Definition id_compress (c : Z) (b : bytes) : bytes := b.
Definition id_decompress (c : Z) (b : bytes) : option bytes := Some b.

Definition w_shape : list field := [([83], Req, TLeaf PString)].      (* struct { S string } *)
Definition w_cfg : config := {| cfg_fields := w_shape; cfg_max := 1000%nat; cfg_codec := 0 |}.
(** the trailer (footer, footer length, "PAR1") of the file with no row group,
    and a valid file with one record whose string value is that trailer *)
Definition w_empty : bytes := file_of_batches id_compress w_cfg [].
Definition w_trailer : bytes := skipn 4 w_empty.
Definition w_file : bytes := file_of_batches id_compress w_cfg [[VGroup [VStr w_trailer]]].

Fixpoint starts_with (pat l : bytes) : bool :=
  match pat, l with
  | [], _ => true
  | p :: pat', x :: l' => (p =? x) && starts_with pat' l'
  | _ :: _, [] => false
  end.

Fixpoint find_sub (pat l : bytes) (i : nat) : option nat :=
  if starts_with pat l then Some i
  else match l with [] => None | _ :: l' => find_sub pat l' (S i) end.

Definition w_cut : nat := match find_sub w_trailer w_file 0 with Some i => (i + length w_trailer)%nat | None => 0%nat end.

Theorem truncation_refuted :
  (w_cut < length w_file)%nat /\
  (* the whole file is valid and reads back its one record ... *)
  o_recs (read_all id_decompress w_shape w_file) = [VGroup [VStr w_trailer]] /\
  o_err (read_all id_decompress w_shape w_file) = false /\
  (* ... and its strict prefix of length w_cut is accepted as a complete file with no rows *)
  read_all id_decompress w_shape (firstn w_cut w_file) =
  {| o_open_ok := true; o_rows := 0; o_nexts := 0; o_err := false; o_panic := false; o_recs := [] |}.
Proof.
  assert (Hfull : read_all id_decompress w_shape w_file = mk_outcome 1 1 false false [VGroup [VStr w_trailer]])
    by (vm_compute; reflexivity).
  rewrite Hfull. split; [apply Nat.ltb_lt; vm_compute; reflexivity|].
  split; [reflexivity|]. split; [reflexivity|]. vm_compute; reflexivity.
Qed.

Print Assumptions open_short.
Print Assumptions open_bad_length.
Print Assumptions open_ok_trailer.
Print Assumptions truncation_refuted.
