(** * DremelProofs: the reference Dremel shredder and assembler are inverse,
    levels are bounded, records are delimited by repetition level 0, and
    sibling columns agree on the structure of their common ancestors. *)
From Coq Require Import List NArith Lia Bool Arith PeanoNat.
From Coq Require Import ZifyN ZifyNat ZifyBool.
From PQ Require Import Bytes Schema Dremel.
Import ListNotations.
Local Open Scope N_scope.

Section TyInd.
  Variable P : ty -> Prop.
  Hypothesis Hleaf : forall p, P (TLeaf p).
  Hypothesis Hgroup :
    forall fs : list field, Forall (fun f : field => P (snd f)) fs -> P (TGroup fs).
  Fixpoint ty_ind' (t : ty) : P t :=
    match t with
    | TLeaf p => Hleaf p
    | TGroup fs =>
        Hgroup fs
          ((fix go (fs : list field) : Forall (fun f : field => P (snd f)) fs :=
              match fs with
              | [] => Forall_nil _
              | f :: fs' => Forall_cons f (ty_ind' (snd f)) (go fs')
              end) fs)
    end.
End TyInd.

Section ValueInd.
  Variable P : value -> Prop.
  Hypothesis Hnum : forall n, P (VNum n).
  Hypothesis Hstr : forall bs, P (VStr bs).
  Hypothesis Hnull : P VNull.
  Hypothesis Hlist : forall vs, Forall P vs -> P (VList vs).
  Hypothesis Hgrp : forall vs, Forall P vs -> P (VGroup vs).
  Fixpoint value_ind' (v : value) : P v :=
    let go :=
      fix go (vs : list value) : Forall P vs :=
        match vs with
        | [] => Forall_nil _
        | v' :: vs' => Forall_cons v' (value_ind' v') (go vs')
        end in
    match v with
    | VNum n => Hnum n
    | VStr bs => Hstr bs
    | VNull => Hnull
    | VList vs => Hlist vs (go vs)
    | VGroup vs => Hgrp vs (go vs)
    end.
End ValueInd.

Fixpoint ty_okb (t : ty) : bool :=
  match t with
  | TLeaf _ => true
  | TGroup fs =>
      match fs with
      | [] => false
      | _ => forallb (fun f : field => ty_okb (snd f)) fs
      end
  end.

(** ** The Dremel paper's Document example *)

Definition doc : list field :=
  [ ([1], Req, TLeaf PInt64);
    ([2], Opt, TGroup [ ([3], Rep, TLeaf PInt64); ([4], Rep, TLeaf PInt64) ]);
    ([5], Rep, TGroup [ ([6], Rep, TGroup [ ([7], Req, TLeaf PString); ([8], Opt, TLeaf PString) ]);
                        ([9], Opt, TLeaf PString) ]) ].
Definition r1 : value :=
  VGroup [ VNum 10;
           VGroup [ VList []; VList [VNum 20; VNum 40; VNum 60] ];
           VList [ VGroup [ VList [ VGroup [VStr [1]; VStr [2]]; VGroup [VStr [3]; VNull] ]; VStr [9] ];
                   VGroup [ VList []; VStr [8] ];
                   VGroup [ VList [ VGroup [VStr [4]; VStr [5]] ]; VNull ] ] ].
Definition r2 : value :=
  VGroup [ VNum 20;
           VGroup [ VList [VNum 10; VNum 30]; VList [VNum 80] ];
           VList [ VGroup [ VList []; VStr [7] ] ] ].

Example doc_ok : (ty_okb (TGroup doc) && has_tyb (TGroup doc) r1 && has_tyb (TGroup doc) r2)%bool = true.
Proof. vm_compute. reflexivity. Qed.

Example paper_code_r1 :
  nth_error (shred_record doc r1) 3 =
  Some [ mk_entry 0 2 (Some (VStr [1])); mk_entry 2 2 (Some (VStr [3]));
         mk_entry 1 1 None; mk_entry 1 2 (Some (VStr [4])) ].
Proof. vm_compute. reflexivity. Qed.

Example paper_country_r1 :
  nth_error (shred_record doc r1) 4 =
  Some [ mk_entry 0 3 (Some (VStr [2])); mk_entry 2 2 None;
         mk_entry 1 1 None; mk_entry 1 3 (Some (VStr [5])) ].
Proof. vm_compute. reflexivity. Qed.

Example paper_code_country_r2 :
  (nth_error (shred_record doc r2) 3, nth_error (shred_record doc r2) 4) =
  (Some [mk_entry 0 1 None], Some [mk_entry 0 1 None]).
Proof. vm_compute. reflexivity. Qed.

Example paper_roundtrip :
  assemble_records doc (shred_records doc [r1; r2; r1]) = Some [r1; r2; r1].
Proof. vm_compute. reflexivity. Qed.

Example paper_levels_ok :
  forallb (fun ces => forallb (entry_levels_ok (fst ces)) (snd ces))
          (combine (columns doc) (shred_records doc [r1; r2; r1])) = true /\
  map count_rep0 (shred_records doc [r1; r2; r1]) = repeat 3 6.
Proof. vm_compute. split; reflexivity. Qed.

(** Why [ty_okb] is needed: with a field-less group the number of records, or
    the presence of an optional group, is not recorded in any column. *)
Example ty_okb_needed :
  assemble_records [] (shred_records [] [VGroup []]) = Some [] /\
  assemble_record [([1], Opt, TGroup [])] (shred_record [([1], Opt, TGroup [])] (VGroup [VGroup []])) = None.
Proof. vm_compute. split; reflexivity. Qed.

(** The step goes over the field list of a group: the form in which
    [null_cols], [columns_ty] and [leaf_count] unfold. *)
Lemma ty_fields_ind (P : ty -> Prop) :
  (forall p, P (TLeaf p)) -> P (TGroup []) ->
  (forall n rp t' fs, P t' -> P (TGroup fs) -> P (TGroup ((n, rp, t') :: fs))) ->
  forall t, P t.
Proof.
  intros Hleaf Hnil Hcons. induction t as [p|fs IH] using ty_ind'; [apply Hleaf|].
  induction IH as [|[[n rp] t'] fs Ht' _ IHfs]; [exact Hnil|]. apply Hcons; assumption.
Qed.

Definition has_field (rp : rept) (t' : ty) (v' : value) : bool :=
  match rp with
  | Req => has_tyb t' v'
  | Opt => match v' with VNull => true | _ => has_tyb t' v' end
  | Rep => match v' with VList es => forallb (has_tyb t') es | _ => false end
  end.

Fixpoint has_fields (fs : list field) (vs : list value) : bool :=
  match fs, vs with
  | [], [] => true
  | (_, rp, t') :: fs', v' :: vs' => has_field rp t' v' && has_fields fs' vs'
  | _, _ => false
  end.

Lemma has_tyb_group_inv fs v :
  has_tyb (TGroup fs) v = true -> exists vs, v = VGroup vs /\ has_fields fs vs = true.
Proof.
  destruct v as [n|bs| |vs|vs]; try discriminate.
  intros H. exists vs. split; [reflexivity|exact H].
Qed.

Lemma has_ty_ind (P : ty -> value -> Prop) :
  (forall p v, has_tyb (TLeaf p) v = true -> P (TLeaf p) v) ->
  P (TGroup []) (VGroup []) ->
  (forall n rp t' fs v' vs,
     has_field rp t' v' = true -> (forall v, has_tyb t' v = true -> P t' v) ->
     has_tyb (TGroup fs) (VGroup vs) = true -> P (TGroup fs) (VGroup vs) ->
     P (TGroup ((n, rp, t') :: fs)) (VGroup (v' :: vs))) ->
  forall t v, has_tyb t v = true -> P t v.
Proof.
  intros Hleaf Hnil Hcons.
  induction t as [p|fs IH] using ty_ind'; intros v Hv; [apply Hleaf; exact Hv|].
  apply has_tyb_group_inv in Hv. destruct Hv as (vs & -> & Hvs). revert vs Hvs.
  induction IH as [|[[n rp] t'] fs Ht' _ IHfs]; intros [|v' vs] Hvs; try discriminate; [exact Hnil|].
  cbn [has_fields] in Hvs. apply andb_true_iff in Hvs. destruct Hvs as [Hv' Hvs].
  apply Hcons; [exact Hv'|exact Ht'|exact Hvs|apply IHfs; exact Hvs].
Qed.

Lemma leaf_count_nil : leaf_count (TGroup []) = 0%nat.
Proof. reflexivity. Qed.

Lemma leaf_count_cons n rp t' fs :
  leaf_count (TGroup ((n, rp, t') :: fs)) = (leaf_count t' + leaf_count (TGroup fs))%nat.
Proof. reflexivity. Qed.

Lemma null_cols_leaf p r d : null_cols (TLeaf p) r d = [[mk_entry r d None]].
Proof. reflexivity. Qed.

Lemma null_cols_nil r d : null_cols (TGroup []) r d = [].
Proof. reflexivity. Qed.

Lemma null_cols_cons n rp t' fs r d :
  null_cols (TGroup ((n, rp, t') :: fs)) r d = null_cols t' r d ++ null_cols (TGroup fs) r d.
Proof. reflexivity. Qed.

Lemma columns_ty_leaf pth rs p :
  columns_ty pth rs (TLeaf p) = [ {| c_path := pth; c_reps := rs; c_prim := p |} ].
Proof. reflexivity. Qed.

Lemma columns_ty_nil pth rs : columns_ty pth rs (TGroup []) = [].
Proof. reflexivity. Qed.

Lemma columns_ty_cons pth rs n rp t' fs :
  columns_ty pth rs (TGroup ((n, rp, t') :: fs)) =
  columns_ty (pth ++ [n]) (rs ++ [rp]) t' ++ columns_ty pth rs (TGroup fs).
Proof. reflexivity. Qed.

Definition shred_field (rp : rept) (t' : ty) (v' : value) (r d k : N) : list (list entry) :=
  match rp with
  | Req => shred_ty t' v' r d k
  | Opt =>
      match v' with
      | VNull => null_cols t' r d
      | _ => shred_ty t' v' r (d + 1) k
      end
  | Rep =>
      match v' with
      | VList (x :: xs) =>
          fold_left zipcat
            (map (fun y => shred_ty t' y (k + 1) (d + 1) (k + 1)) xs)
            (shred_ty t' x r (d + 1) (k + 1))
      | _ => null_cols t' r d
      end
  end.

Fixpoint shred_fields (fs : list field) (vs : list value) (r d k : N) : list (list entry) :=
  match fs, vs with
  | (_, rp, t') :: fs', v' :: vs' => shred_field rp t' v' r d k ++ shred_fields fs' vs' r d k
  | _, _ => []
  end.

Lemma shred_ty_leaf p v r d k : shred_ty (TLeaf p) v r d k = [[mk_entry r d (Some v)]].
Proof. reflexivity. Qed.

Lemma shred_ty_cons n rp t' fs v' vs r d k :
  shred_ty (TGroup ((n, rp, t') :: fs)) (VGroup (v' :: vs)) r d k =
  shred_field rp t' v' r d k ++ shred_ty (TGroup fs) (VGroup vs) r d k.
Proof. reflexivity. Qed.

Lemma shred_ty_group fs vs r d k :
  shred_ty (TGroup fs) (VGroup vs) r d k = shred_fields fs vs r d k.
Proof.
  revert vs; induction fs as [|[[n rp] t'] fs IH]; intros [|v' vs]; try reflexivity.
  rewrite shred_ty_cons, IH. reflexivity.
Qed.

Definition assemble_field (rp : rept) (t' : ty) (mine : list (list entry)) (d k : N) : option value :=
  match rp with
  | Req => assemble_ty t' mine d k
  | Opt =>
      match first_def mine with
      | Some fd => if fd <=? d then Some VNull else assemble_ty t' mine (d + 1) k
      | None => None
      end
  | Rep =>
      match first_def mine with
      | Some fd =>
          if fd <=? d then Some (VList [])
          else
            let segs := map (split_at_rep (k + 1)) mine in
            let elems := transpose (length (hd [] segs)) segs in
            option_map VList (sequence (map (fun el => assemble_ty t' el (d + 1) (k + 1)) elems))
      | None => None
      end
  end.

Fixpoint assemble_fields (fs : list field) (cols : list (list entry)) (d k : N) : option (list value) :=
  match fs with
  | [] => match cols with [] => Some [] | _ => None end
  | (_, rp, t') :: fs' =>
      match assemble_field rp t' (firstn (leaf_count t') cols) d k,
            assemble_fields fs' (skipn (leaf_count t') cols) d k with
      | Some v, Some vs => Some (v :: vs)
      | _, _ => None
      end
  end.

Lemma assemble_ty_leaf p cols d k :
  assemble_ty (TLeaf p) cols d k = match cols with [[e]] => e_val e | _ => None end.
Proof. reflexivity. Qed.

Lemma assemble_ty_group fs cols d k :
  assemble_ty (TGroup fs) cols d k = option_map VGroup (assemble_fields fs cols d k).
Proof.
  cbn [assemble_ty]. f_equal.
  revert cols; induction fs as [|[[n rp] t'] fs IH]; intros cols; [reflexivity|].
  cbn [assemble_fields]. rewrite <- IH. reflexivity.
Qed.

Lemma Forall2_nth_error {A B} (P : A -> B -> Prop) l1 l2 i a b :
  Forall2 P l1 l2 -> nth_error l1 i = Some a -> nth_error l2 i = Some b -> P a b.
Proof.
  intros H. revert i. induction H as [|x y l1 l2 Hxy Hl IH]; intros [|i] Ha Hb;
    cbn [nth_error] in Ha, Hb; try discriminate.
  - injection Ha as <-. injection Hb as <-. exact Hxy.
  - eapply IH; eassumption.
Qed.

Lemma forallb_Forall {A} (f : A -> bool) l : forallb f l = true -> Forall (fun x => f x = true) l.
Proof. intros H. apply Forall_forall. apply forallb_forall. exact H. Qed.

Lemma forallb_impl {A} (f : A -> bool) (P : A -> Prop) l :
  (forall x, f x = true -> P x) -> forallb f l = true -> Forall P l.
Proof. intros HP H. exact (Forall_impl P HP (forallb_Forall f l H)). Qed.

Lemma Forall_map_impl {A B} (P : A -> Prop) (Q : B -> Prop) (f : A -> B) xs :
  (forall y, P y -> Q (f y)) -> Forall P xs -> Forall Q (map f xs).
Proof. intros H Hxs. apply Forall_map. eapply Forall_impl; [exact H|exact Hxs]. Qed.

Lemma sequence_map_inv {A B} (f : B -> option A) (g : A -> B) xs :
  Forall (fun y => f (g y) = Some y) xs -> sequence (map f (map g xs)) = Some xs.
Proof.
  induction 1 as [|y xs Hy Hxs IH]; cbn [map sequence]; [reflexivity|].
  rewrite Hy, IH. reflexivity.
Qed.

Lemma ty_okb_group fs :
  ty_okb (TGroup fs) = true ->
  fs <> [] /\ Forall (fun f : field => ty_okb (snd f) = true) fs.
Proof.
  destruct fs as [|f fs]; [discriminate|].
  intros H. split; [discriminate|]. apply forallb_Forall. exact H.
Qed.

Lemma zipcat_length a b : length (zipcat a b) = Nat.min (length a) (length b).
Proof.
  revert b; induction a as [|x a IH]; intros [|y b]; cbn [zipcat length Nat.min]; try reflexivity.
  rewrite IH. reflexivity.
Qed.

Lemma zipcat_assoc a b c : zipcat (zipcat a b) c = zipcat a (zipcat b c).
Proof.
  revert b c; induction a as [|x a IH]; intros [|y b] [|z c]; cbn [zipcat]; try reflexivity.
  rewrite <- app_assoc, IH. reflexivity.
Qed.

Lemma zipcat_Forall (P Q R : list entry -> Prop) a b :
  (forall x y, P x -> Q y -> R (x ++ y)) ->
  Forall P a -> Forall Q b -> Forall R (zipcat a b).
Proof.
  intros HR Ha. revert b. induction Ha as [|x a Hx Ha IH]; intros b Hb; [constructor|].
  destruct Hb as [|y b Hy Hb]; cbn [zipcat]; constructor; auto.
Qed.

Lemma Forall2_zipcat {A} (R : A -> list entry -> Prop) cs a b :
  (forall c x y, R c x -> R c y -> R c (x ++ y)) ->
  Forall2 R cs a -> Forall2 R cs b -> Forall2 R cs (zipcat a b).
Proof.
  intros HR Ha. revert b. induction Ha as [|c x cs a Hx Ha IH]; intros b Hb;
    inversion Hb as [|c' y cs' b' Hy Hb' E1 E2]; subst; cbn [zipcat]; constructor; auto.
Qed.

Lemma zipcat_repeat_nil c : zipcat (repeat [] (length c)) c = c.
Proof. induction c as [|x c IH]; cbn [length repeat zipcat app]; [reflexivity|]. rewrite IH. reflexivity. Qed.

(** [fold_left zipcat css c0] written as a right-nested concatenation. *)
Fixpoint zipcat_list (c0 : list (list entry)) (css : list (list (list entry))) : list (list entry) :=
  match css with
  | [] => c0
  | c1 :: css' => zipcat c0 (zipcat_list c1 css')
  end.

Lemma fold_left_zipcat css : forall a b,
  fold_left zipcat css (zipcat a b) = zipcat a (fold_left zipcat css b).
Proof.
  induction css as [|c css IH]; intros a b; cbn [fold_left]; [reflexivity|].
  rewrite zipcat_assoc. apply IH.
Qed.

Lemma fold_left_zipcat_list css : forall c0, fold_left zipcat css c0 = zipcat_list c0 css.
Proof.
  induction css as [|c1 css IH]; intros c0; cbn [fold_left zipcat_list]; [reflexivity|].
  rewrite fold_left_zipcat, IH. reflexivity.
Qed.

Lemma zipcat_list_length n css : forall c0,
  Forall (fun c => length c = n) (c0 :: css) -> length (zipcat_list c0 css) = n.
Proof.
  induction css as [|c1 css IH]; intros c0 H; cbn [zipcat_list];
    apply Forall_cons_iff in H; destruct H as [Hc0 Hrest]; [exact Hc0|].
  rewrite zipcat_length, (IH c1 Hrest), Hc0. apply Nat.min_id.
Qed.

Lemma zipcat_list_Forall (P : list entry -> Prop) css : forall c0,
  (forall x y, P x -> P y -> P (x ++ y)) ->
  Forall (Forall P) (c0 :: css) -> Forall P (zipcat_list c0 css).
Proof.
  induction css as [|c1 css IH]; intros c0 HP H; cbn [zipcat_list];
    apply Forall_cons_iff in H; destruct H as [Hc0 Hrest]; [exact Hc0|].
  eapply zipcat_Forall; [exact HP|exact Hc0|]. apply IH; assumption.
Qed.

Lemma zipcat_list_Forall_l (P : list entry -> Prop) css c0 :
  (forall x y, P x -> P (x ++ y)) -> Forall P c0 -> Forall P (zipcat_list c0 css).
Proof.
  intros HP H0. destruct css as [|c1 css]; cbn [zipcat_list]; [exact H0|].
  apply (zipcat_Forall P (fun _ => True) P); [intros x y Hx _; apply HP; exact Hx|exact H0|].
  apply Forall_forall. intros y _. exact I.
Qed.

Lemma Forall2_zipcat_list {A} (R : A -> list entry -> Prop) cs css : forall c0,
  (forall c x y, R c x -> R c y -> R c (x ++ y)) ->
  Forall2 R cs c0 -> Forall (Forall2 R cs) css -> Forall2 R cs (zipcat_list c0 css).
Proof.
  induction css as [|c1 css IH]; intros c0 HR H0 Hcss; cbn [zipcat_list]; [exact H0|].
  apply Forall_cons_iff in Hcss. destruct Hcss as [H1 Hrest].
  apply Forall2_zipcat; [exact HR|exact H0|]. apply IH; assumption.
Qed.

Definition all_gt (k : N) (es : list entry) : Prop := Forall (fun e => k < e_rep e) es.

Definition col_ok (r d k : N) (es : list entry) : Prop :=
  match es with
  | [] => False
  | e :: rest => e_rep e = r /\ d <= e_def e /\ all_gt k rest
  end.

Definition hd_le (k : N) (es : list entry) : Prop :=
  match es with [] => False | e :: _ => e_rep e <= k end.
Definition tail_gt (k : N) (es : list entry) : Prop :=
  match es with [] => False | _ :: rest => all_gt k rest end.

Lemma all_gt_weaken k k' es : k' <= k -> all_gt k es -> all_gt k' es.
Proof. intros Hk H. eapply Forall_impl; [|exact H]. cbv beta. intros e He. lia. Qed.

Lemma all_gt_app k a b : all_gt k a -> all_gt k b -> all_gt k (a ++ b).
Proof. intros Ha Hb. apply Forall_app. split; assumption. Qed.

Lemma all_gt_filter k (f : entry -> bool) es :
  all_gt k es -> (forall e, k < e_rep e -> f e = false) -> filter f es = [].
Proof.
  intros H Hf. induction H as [|e es He Hes IH]; [reflexivity|].
  cbn [filter]. rewrite (Hf e He). exact IH.
Qed.

Lemma col_ok_single r d k v : col_ok r d k [mk_entry r d v].
Proof. cbn [col_ok mk_entry e_rep e_def]. split; [reflexivity|]. split; [lia|constructor]. Qed.

Lemma col_ok_weaken r d k d' k' es : d' <= d -> k' <= k -> col_ok r d k es -> col_ok r d' k' es.
Proof.
  destruct es as [|e rest]; [auto|]. intros Hd Hk (Hr & Hdef & Hrest).
  split; [exact Hr|]. split; [lia|]. eapply all_gt_weaken; eassumption.
Qed.

Lemma col_ok_all_gt r d k k' es : k' < r -> k' <= k -> col_ok r d k es -> all_gt k' es.
Proof.
  destruct es as [|e rest]; [contradiction|]. intros Hr Hk (Hr' & _ & Hrest).
  constructor; [lia|]. eapply all_gt_weaken; eassumption.
Qed.

Lemma col_ok_app r d k a b : col_ok r d k a -> all_gt k b -> col_ok r d k (a ++ b).
Proof.
  destruct a as [|e rest]; [contradiction|]. intros (Hr & Hd & Hrest) Hb.
  cbn [app col_ok]. split; [exact Hr|]. split; [exact Hd|]. apply all_gt_app; assumption.
Qed.

Lemma col_ok_tail_gt r d k es : col_ok r d k es -> tail_gt k es.
Proof. destruct es as [|e rest]; [auto|]. intros (_ & _ & H). exact H. Qed.

Lemma col_ok_hd_le r d k es : col_ok r d k es -> hd_le r es.
Proof. destruct es as [|e rest]; [auto|]. intros (H & _ & _). cbn [hd_le]. lia. Qed.

Lemma hd_le_app k a b : hd_le k a -> hd_le k (a ++ b).
Proof. destruct a as [|e rest]; [contradiction|]. auto. Qed.

Lemma zipcat_list_ok r d k css c0 :
  Forall (col_ok r d k) c0 -> Forall (Forall (all_gt k)) css ->
  Forall (col_ok r d k) (zipcat_list c0 css).
Proof.
  intros H0 Hcss. destruct css as [|c1 css]; cbn [zipcat_list]; [exact H0|].
  eapply zipcat_Forall; [|exact H0|].
  - intros x y Hx Hy. apply col_ok_app; eassumption.
  - apply zipcat_list_Forall; [|exact Hcss]. intros x y. apply all_gt_app.
Qed.

Lemma first_def_gt r d k cols :
  (0 < length cols)%nat -> Forall (col_ok r (d + 1) k) cols ->
  exists fd, first_def cols = Some fd /\ (fd <=? d) = false.
Proof.
  destruct cols as [|c cols]; cbn [length]; [lia|]. intros _ H.
  apply Forall_inv in H. destruct c as [|e rest]; [contradiction|].
  destruct H as (_ & Hd & _). exists (e_def e). split; [reflexivity|lia].
Qed.

Lemma split_at_rep_1 k e : split_at_rep k [e] = [[e]].
Proof. reflexivity. Qed.

Lemma split_at_rep_2 k e e' rest :
  split_at_rep k (e :: e' :: rest) =
  if e_rep e' <=? k then [e] :: split_at_rep k (e' :: rest)
  else match split_at_rep k (e' :: rest) with
       | s :: ss => (e :: s) :: ss
       | [] => [[e]]
       end.
Proof. reflexivity. Qed.

Lemma split_app k a b :
  tail_gt k a -> (b = [] \/ hd_le k b) -> split_at_rep k (a ++ b) = a :: split_at_rep k b.
Proof.
  destruct a as [|e rest]; [contradiction|]. unfold tail_gt, all_gt. intros Hrest Hb.
  revert e. induction Hrest as [|e2 rest' He2 Hrest' IH]; intros e.
  - cbn [app]. destruct b as [|e' b']; [reflexivity|].
    destruct Hb as [Hb|Hb]; [discriminate|]. cbn [hd_le] in Hb.
    rewrite split_at_rep_2.
    destruct (e_rep e' <=? k) eqn:Hle; [reflexivity|lia].
  - change ((e :: e2 :: rest') ++ b) with (e :: e2 :: (rest' ++ b)).
    rewrite split_at_rep_2.
    destruct (e_rep e2 <=? k) eqn:Hle; [lia|].
    change (e2 :: rest' ++ b) with ((e2 :: rest') ++ b). rewrite IH. reflexivity.
Qed.

Lemma split_single k a : tail_gt k a -> split_at_rep k a = [a].
Proof.
  intros Ha. rewrite <- (app_nil_r a) at 1. rewrite split_app; [reflexivity|exact Ha|left; reflexivity].
Qed.

Fixpoint zipcons (a : list (list entry)) (b : list (list (list entry))) : list (list (list entry)) :=
  match a, b with
  | x :: a', y :: b' => (x :: y) :: zipcons a' b'
  | _, _ => []
  end.

Lemma map_split_zipcat k a b :
  Forall (tail_gt k) a -> Forall (hd_le k) b ->
  map (split_at_rep k) (zipcat a b) = zipcons a (map (split_at_rep k) b).
Proof.
  intros Ha. revert b. induction Ha as [|x a Hx Ha IH]; intros b Hb; [reflexivity|].
  destruct Hb as [|y b Hy Hb]; [reflexivity|].
  cbn [zipcat map zipcons]. rewrite split_app by (auto). rewrite IH by assumption. reflexivity.
Qed.

Lemma map_hd_zipcons a b : length a = length b -> map (hd []) (zipcons a b) = a.
Proof.
  revert b; induction a as [|x a IH]; intros [|y b] H; cbn [length] in H; try discriminate; [reflexivity|].
  cbn [zipcons map hd]. rewrite IH by lia. reflexivity.
Qed.

Lemma map_tl_zipcons a b : length a = length b -> map (@tl _) (zipcons a b) = b.
Proof.
  revert b; induction a as [|x a IH]; intros [|y b] H; cbn [length] in H; try discriminate; [reflexivity|].
  cbn [zipcons map tl]. rewrite IH by lia. reflexivity.
Qed.

Lemma zipcons_seg_length m a b :
  Forall (fun s => length s = m) b -> Forall (fun s => length s = S m) (zipcons a b).
Proof.
  intros Hb. revert a. induction Hb as [|y b Hy Hb IH]; intros [|x a]; cbn [zipcons]; constructor.
  - cbn [length]. rewrite Hy. reflexivity.
  - apply IH.
Qed.

Lemma transpose_S n segs :
  transpose (S n) segs = map (hd []) segs :: transpose n (map (@tl _) segs).
Proof. reflexivity. Qed.

(** The central inversion.  The columns of the first element [c0] start at
    level [r], those of the later elements [css] at the boundary level [k],
    and nothing else is at or below [k]: so splitting the concatenated columns
    at [k] gives one segment per element, and transposing recovers the
    per-element column lists. *)
Lemma split_zipcat_list k d n css : forall r c0,
  Forall (fun c => length c = n) (c0 :: css) ->
  Forall (col_ok r d k) c0 -> Forall (Forall (col_ok k d k)) css ->
  Forall (fun s => length s = S (length css)) (map (split_at_rep k) (zipcat_list c0 css)) /\
  transpose (S (length css)) (map (split_at_rep k) (zipcat_list c0 css)) = c0 :: css.
Proof.
  induction css as [|c1 css IH]; intros r c0 Hlen H0 Hcss; cbn [zipcat_list length].
  - assert (E : map (split_at_rep k) c0 = map (fun c => [c]) c0).
    { apply map_ext_in. intros c Hc. apply split_single. eapply col_ok_tail_gt.
      exact (proj1 (Forall_forall _ _) H0 c Hc). }
    rewrite E. split; [apply Forall_map, Forall_forall; intros c _; reflexivity|].
    rewrite transpose_S. cbn [transpose]. rewrite map_map. cbn [hd]. rewrite map_id. reflexivity.
  - apply Forall_cons_iff in Hlen. destruct Hlen as [Hl0 Hlen].
    apply Forall_cons_iff in Hcss. destruct Hcss as [H1 Hcss].
    destruct (IH k c1 Hlen H1 Hcss) as [IHl IHt].
    assert (Hl : length c0 = length (map (split_at_rep k) (zipcat_list c1 css))).
    { rewrite map_length, (zipcat_list_length n css c1 Hlen). exact Hl0. }
    rewrite map_split_zipcat.
    + split; [apply zipcons_seg_length; exact IHl|].
      rewrite transpose_S, map_hd_zipcons, map_tl_zipcons, IHt by exact Hl. reflexivity.
    + eapply Forall_impl; [|exact H0]. intros c. apply col_ok_tail_gt.
    + apply zipcat_list_Forall_l; [intros x y; apply hd_le_app|].
      eapply Forall_impl; [|exact H1]. intros c. apply col_ok_hd_le.
Qed.

Inductive field_case (t' : ty) (r d k : N) : rept -> value -> list (list entry) -> Prop :=
| FC_req v :
    has_tyb t' v = true -> field_case t' r d k Req v (shred_ty t' v r d k)
| FC_opt_null :
    field_case t' r d k Opt VNull (null_cols t' r d)
| FC_opt_some v :
    v <> VNull -> has_tyb t' v = true -> field_case t' r d k Opt v (shred_ty t' v r (d + 1) k)
| FC_rep_nil :
    field_case t' r d k Rep (VList []) (null_cols t' r d)
| FC_rep_cons x xs :
    has_tyb t' x = true -> Forall (fun y => has_tyb t' y = true) xs ->
    field_case t' r d k Rep (VList (x :: xs))
      (zipcat_list (shred_ty t' x r (d + 1) (k + 1))
                   (map (fun y => shred_ty t' y (k + 1) (d + 1) (k + 1)) xs)).

Lemma shred_field_case rp t' v' r d k :
  has_field rp t' v' = true -> field_case t' r d k rp v' (shred_field rp t' v' r d k).
Proof.
  destruct rp; cbn [has_field shred_field]; intros H.
  - constructor. exact H.
  - destruct v' as [n|bs| |vs|vs]; try (constructor; [discriminate|exact H]). constructor.
  - destruct v' as [n|bs| |vs|vs]; try discriminate.
    destruct vs as [|x xs]; [constructor|].
    rewrite fold_left_zipcat_list. cbn [forallb] in H. apply andb_true_iff in H. destruct H as [Hx Hxs].
    constructor; [exact Hx|]. apply forallb_Forall. exact Hxs.
Qed.

Lemma null_cols_length t r d : length (null_cols t r d) = leaf_count t.
Proof.
  induction t as [p| |n rp t' fs IHt IHfs] using ty_fields_ind; [reflexivity|reflexivity|].
  rewrite null_cols_cons, leaf_count_cons, app_length, IHt, IHfs. reflexivity.
Qed.

Lemma null_cols_all t r d : Forall (fun c => c = [mk_entry r d None]) (null_cols t r d).
Proof.
  induction t as [p| |n rp t' fs IHt IHfs] using ty_fields_ind; [repeat constructor|constructor|].
  rewrite null_cols_cons. apply Forall_app. split; assumption.
Qed.

Lemma shred_field_length_if rp t' v' r d k :
  (forall v, has_tyb t' v = true -> forall r d k, length (shred_ty t' v r d k) = leaf_count t') ->
  has_field rp t' v' = true -> length (shred_field rp t' v' r d k) = leaf_count t'.
Proof.
  intros IH H. destruct (shred_field_case rp t' v' r d k H) as [v Hv| |v Hnn Hv| |x xs Hx Hxs];
    auto using null_cols_length.
  apply zipcat_list_length. constructor; [auto|].
  apply Forall_map_impl with (2 := Hxs). auto.
Qed.

Lemma shred_ty_length t v r d k :
  has_tyb t v = true -> length (shred_ty t v r d k) = leaf_count t.
Proof.
  intros Hv. revert r d k. revert t v Hv.
  apply (has_ty_ind (fun t v => forall r d k, length (shred_ty t v r d k) = leaf_count t));
    [reflexivity|reflexivity|].
  intros n rp t' fs v' vs Hv' IHt _ IHfs r d k.
  rewrite shred_ty_cons, leaf_count_cons, app_length, IHfs, (shred_field_length_if rp t' v' r d k IHt Hv').
  reflexivity.
Qed.

Lemma shred_field_length rp t' v' r d k :
  has_field rp t' v' = true -> length (shred_field rp t' v' r d k) = leaf_count t'.
Proof. apply shred_field_length_if. intros v Hv r0 d0 k0. apply shred_ty_length. exact Hv. Qed.

Lemma null_cols_ok t r d k : Forall (col_ok r d k) (null_cols t r d).
Proof.
  eapply Forall_impl; [|apply null_cols_all]. cbv beta. intros c ->. apply col_ok_single.
Qed.

Lemma shred_list_ok t' x xs r d k :
  (forall v, has_tyb t' v = true -> forall r d k, Forall (col_ok r d k) (shred_ty t' v r d k)) ->
  has_tyb t' x = true -> Forall (fun y => has_tyb t' y = true) xs ->
  Forall (col_ok r (d + 1) k)
    (zipcat_list (shred_ty t' x r (d + 1) (k + 1)) (map (fun y => shred_ty t' y (k + 1) (d + 1) (k + 1)) xs)).
Proof.
  intros IH Hx Hxs. apply zipcat_list_ok.
  - eapply Forall_impl; [|apply (IH x Hx r (d + 1) (k + 1))]. intros c. apply col_ok_weaken; lia.
  - apply Forall_map_impl with (2 := Hxs). intros y Hy.
    eapply Forall_impl; [|apply (IH y Hy (k + 1) (d + 1) (k + 1))]. intros c.
    apply col_ok_all_gt; lia.
Qed.

Lemma shred_ty_nonempty t v r d k :
  has_tyb t v = true -> Forall (col_ok r d k) (shred_ty t v r d k).
Proof.
  intros Hv. revert r d k. revert t v Hv.
  apply (has_ty_ind (fun t v => forall r d k, Forall (col_ok r d k) (shred_ty t v r d k))).
  - intros p v _ r d k. rewrite shred_ty_leaf. constructor; [apply col_ok_single|constructor].
  - constructor.
  - intros n rp t' fs v' vs Hv' IHt _ IHfs r d k.
    rewrite shred_ty_cons. apply Forall_app. split; [|apply IHfs].
    destruct (shred_field_case rp t' v' r d k Hv') as [v Hv| |v Hnn Hv| |x xs Hx Hxs];
      auto using null_cols_ok.
    + eapply Forall_impl; [|apply (IHt v Hv r (d + 1) k)]. intros c. apply col_ok_weaken; lia.
    + eapply Forall_impl; [|apply (shred_list_ok t' x xs r d k IHt Hx Hxs)].
      intros c. apply col_ok_weaken; lia.
Qed.

(** ** Assembly inverts shredding *)

Lemma leaf_count_pos t : ty_okb t = true -> (0 < leaf_count t)%nat.
Proof.
  induction t as [p| |n rp t' fs IHt _] using ty_fields_ind; intros Hok;
    [cbn [leaf_count]; lia|discriminate|].
  apply ty_okb_group in Hok. destruct Hok as [_ Hall]. apply Forall_inv in Hall.
  rewrite leaf_count_cons. specialize (IHt Hall). lia.
Qed.

Lemma null_cols_first_def t r d : ty_okb t = true -> first_def (null_cols t r d) = Some d.
Proof.
  intros Hok. pose proof (leaf_count_pos t Hok) as Hpos.
  rewrite <- (null_cols_length t r d) in Hpos.
  pose proof (null_cols_all t r d) as Hall.
  destruct (null_cols t r d) as [|c cols]; cbn [length] in Hpos; [lia|].
  rewrite (Forall_inv Hall). reflexivity.
Qed.

Lemma assemble_elems (asm : list (list entry) -> option value) t r d k x xs :
  ty_okb t = true -> has_tyb t x = true -> Forall (fun y => has_tyb t y = true) xs ->
  (forall y, has_tyb t y = true -> forall r, asm (shred_ty t y r d k) = Some y) ->
  let segs := map (split_at_rep k)
                  (zipcat_list (shred_ty t x r d k) (map (fun y => shred_ty t y k d k) xs)) in
  sequence (map asm (transpose (length (hd [] segs)) segs)) = Some (x :: xs).
Proof.
  intros Hok Hx Hxs Hasm. pose proof (leaf_count_pos t Hok) as Hpos.
  set (c0 := shred_ty t x r d k). set (css := map (fun y => shred_ty t y k d k) xs).
  assert (Hlen : Forall (fun c => length c = leaf_count t) (c0 :: css)).
  { constructor; [apply shred_ty_length; exact Hx|].
    apply Forall_map_impl with (2 := Hxs). intros y. apply shred_ty_length. }
  destruct (split_zipcat_list k d _ css r c0 Hlen) as [Hl Ht].
  { apply shred_ty_nonempty. exact Hx. }
  { apply Forall_map_impl with (2 := Hxs). intros y. apply shred_ty_nonempty. }
  pose proof (zipcat_list_length _ css c0 Hlen) as Hz. cbv zeta.
  destruct (zipcat_list c0 css) as [|c cs]; cbn [length] in Hz; [lia|].
  cbn [map hd] in *. rewrite (Forall_inv Hl), Ht.
  cbn [map sequence]. unfold c0, css. rewrite (Hasm x Hx), sequence_map_inv; [reflexivity|].
  eapply Forall_impl; [|exact Hxs]. intros y Hy. apply Hasm. exact Hy.
Qed.

Lemma assemble_field_shred rp t' v' r d k :
  ty_okb t' = true ->
  (forall v r d k, has_tyb t' v = true -> assemble_ty t' (shred_ty t' v r d k) d k = Some v) ->
  has_field rp t' v' = true ->
  assemble_field rp t' (shred_field rp t' v' r d k) d k = Some v'.
Proof.
  intros Hok IH H. pose proof (leaf_count_pos t' Hok) as Hpos.
  rewrite <- (shred_field_length rp t' v' r d k H) in Hpos. revert Hpos.
  destruct (shred_field_case rp t' v' r d k H) as [v Hv| |v Hnn Hv| |x xs Hx Hxs];
    intros Hpos; cbn [assemble_field].
  - apply IH. exact Hv.
  - rewrite null_cols_first_def by exact Hok. rewrite N.leb_refl. reflexivity.
  - destruct (first_def_gt r d k _ Hpos (shred_ty_nonempty t' v r (d + 1) k Hv)) as (fd & -> & ->).
    apply IH. exact Hv.
  - rewrite null_cols_first_def by exact Hok. rewrite N.leb_refl. reflexivity.
  - destruct (first_def_gt r d k _ Hpos) as (fd & -> & ->).
    + exact (shred_list_ok t' x xs r d k (fun v Hv r d k => shred_ty_nonempty t' v r d k Hv) Hx Hxs).
    + cbv zeta. rewrite (assemble_elems (fun el => assemble_ty t' el (d + 1) (k + 1)) t' r (d + 1) (k + 1) x xs);
        [reflexivity|exact Hok|exact Hx|exact Hxs|]. intros y Hy r0. apply IH. exact Hy.
Qed.

Theorem assemble_shred_gen t :
  ty_okb t = true -> forall v r d k,
  has_tyb t v = true -> assemble_ty t (shred_ty t v r d k) d k = Some v.
Proof.
  induction t as [p|fs IH] using ty_ind'; intros Hok v r d k Hv; [reflexivity|].
  apply has_tyb_group_inv in Hv. destruct Hv as (vs & -> & Hvs).
  rewrite shred_ty_group, assemble_ty_group.
  apply ty_okb_group in Hok. destruct Hok as [_ Hall].
  assert (Hgo : assemble_fields fs (shred_fields fs vs r d k) d k = Some vs);
    [|rewrite Hgo; reflexivity].
  clear - IH Hall Hvs. revert vs Hvs.
  induction IH as [|[[n rp] t'] fs Ht' Hfs IHfs]; intros [|v' vs] Hvs; try discriminate; [reflexivity|].
  cbn [has_fields] in Hvs. apply andb_true_iff in Hvs. destruct Hvs as [Hv' Hvs].
  apply Forall_cons_iff in Hall. destruct Hall as [Hok' Hall']. cbn [snd] in Hok', Ht'.
  cbn [shred_fields assemble_fields].
  rewrite firstn_app_len, skipn_app_len by (apply shred_field_length; exact Hv').
  rewrite assemble_field_shred; [|exact Hok'|exact (Ht' Hok')|exact Hv'].
  rewrite (IHfs Hall' vs Hvs). reflexivity.
Qed.

Theorem assemble_shred t v r d k :
  ty_okb t = true -> has_tyb t v = true -> r <= k ->
  assemble_ty t (shred_ty t v r d k) d k = Some v.
Proof. intros Hok Hv _. apply assemble_shred_gen; assumption. Qed.

Theorem assemble_shred_record fs v :
  ty_okb (TGroup fs) = true -> has_tyb (TGroup fs) v = true ->
  assemble_record fs (shred_record fs v) = Some v.
Proof. intros Hok Hv. unfold assemble_record, shred_record. apply assemble_shred_gen; assumption. Qed.

(** ** A sequence of records, delimited by repetition level 0 *)

Lemma shred_records_cons fs v vs :
  has_tyb (TGroup fs) v = true ->
  shred_records fs (v :: vs) = zipcat_list (shred_record fs v) (map (shred_record fs) vs).
Proof.
  intros Hv. unfold shred_records. cbn [map fold_left].
  rewrite <- (shred_ty_length (TGroup fs) v 0 0 0 Hv). fold (shred_record fs v).
  rewrite zipcat_repeat_nil. apply fold_left_zipcat_list.
Qed.

Theorem assemble_shred_records fs vs :
  ty_okb (TGroup fs) = true -> Forall (fun v => has_tyb (TGroup fs) v = true) vs ->
  assemble_records fs (shred_records fs vs) = Some vs.
Proof.
  intros Hok Hvs. destruct Hvs as [|v vs Hv Hvs].
  - unfold assemble_records, shred_records. cbn [map fold_left]. cbv zeta.
    assert (Hhd : length (hd [] (map (split_at_rep 0) (repeat [] (leaf_count (TGroup fs))))) = 0%nat).
    { destruct (leaf_count (TGroup fs)); reflexivity. }
    rewrite Hhd. reflexivity.
  - rewrite shred_records_cons by exact Hv.
    apply (assemble_elems (assemble_record fs) (TGroup fs) 0 0 0 v vs Hok Hv Hvs).
    intros y Hy r. exact (assemble_shred_gen (TGroup fs) Hok y r 0 0 Hy).
Qed.

(** ** Levels are bounded and say whether a value is present *)

Definition lev_ok (c : col) (es : list entry) : Prop :=
  Forall (fun e => entry_levels_ok c e = true) es.

Definition nonreqN (rp : rept) : N := if is_nonreq rp then 1 else 0.
Definition isrepN (rp : rept) : N := if is_rep rp then 1 else 0.

Lemma count_rep_snoc f rs rp :
  count_rep f (rs ++ [rp]) = count_rep f rs + (if f rp then 1 else 0).
Proof. unfold count_rep. rewrite filter_app, app_length. cbn [filter]. destruct (f rp); cbn [length]; lia. Qed.

Lemma columns_ty_length t : forall pth rs, length (columns_ty pth rs t) = leaf_count t.
Proof.
  induction t as [p| |n rp t' fs IHt IHfs] using ty_fields_ind; intros pth rs; [reflexivity|reflexivity|].
  rewrite columns_ty_cons, leaf_count_cons, app_length, IHt, IHfs. reflexivity.
Qed.

Lemma columns_ty_bounds t : forall pth rs,
  Forall (fun c => count_rep is_nonreq rs <= max_def c /\ count_rep is_rep rs <= max_rep c)
         (columns_ty pth rs t).
Proof.
  induction t as [p| |n rp t' fs IHt IHfs] using ty_fields_ind; intros pth rs.
  - rewrite columns_ty_leaf. constructor; [|constructor].
    unfold max_def, max_rep. cbn [c_reps]. lia.
  - constructor.
  - rewrite columns_ty_cons. apply Forall_app. split; [|apply IHfs].
    eapply Forall_impl; [|apply (IHt (pth ++ [n]) (rs ++ [rp]))].
    cbv beta. intros c. rewrite !count_rep_snoc.
    destruct (is_nonreq rp), (is_rep rp); lia.
Qed.

(** What a column-wise statement [Q] needs in order to hold between the columns
    of a type and the shredding of any of its values ([shred_ty_cols]). *)
Record shred_rel (Q : col -> list entry -> Prop) : Prop := {
  rel_val : forall pth rs p v r,
    has_tyb (TLeaf p) v = true -> r <= count_rep is_rep rs ->
    Q {| c_path := pth; c_reps := rs; c_prim := p |} [mk_entry r (count_rep is_nonreq rs) (Some v)];
  rel_null : forall pth rs p r d,
    r <= count_rep is_rep rs -> d < count_rep is_nonreq rs ->
    Q {| c_path := pth; c_reps := rs; c_prim := p |} [mk_entry r d None];
  rel_app : forall c a b, Q c a -> Q c b -> Q c (a ++ b) }.

Lemma null_cols_cols Q t : shred_rel Q -> forall pth rs r d,
  r <= count_rep is_rep rs -> d < count_rep is_nonreq rs ->
  Forall2 Q (columns_ty pth rs t) (null_cols t r d).
Proof.
  intros HQ.
  induction t as [p| |n rp t' fs IHt IHfs] using ty_fields_ind; intros pth rs r d Hr Hd.
  - rewrite columns_ty_leaf, null_cols_leaf. constructor; [|constructor]. apply (rel_null Q HQ); assumption.
  - constructor.
  - rewrite columns_ty_cons, null_cols_cons. apply Forall2_app; [|apply IHfs; assumption].
    apply IHt; rewrite count_rep_snoc; lia.
Qed.

(** [d] and [k] are the levels of the path [rs] to the type.  (A definition,
    so that the arithmetic below is done in a context without quantified
    level facts.) *)
Definition cols_stmt (Q : col -> list entry -> Prop) (t : ty) (v : value) : Prop :=
  forall pth rs r d k,
    d = count_rep is_nonreq rs -> k = count_rep is_rep rs -> r <= k ->
    Forall2 Q (columns_ty pth rs t) (shred_ty t v r d k).

Lemma shred_ty_cols Q t v pth rs r d k :
  shred_rel Q -> has_tyb t v = true ->
  d = count_rep is_nonreq rs -> k = count_rep is_rep rs -> r <= k ->
  Forall2 Q (columns_ty pth rs t) (shred_ty t v r d k).
Proof.
  intros HQ Hv. revert pth rs r d k. change (cols_stmt Q t v). revert t v Hv. apply has_ty_ind.
  - intros p v Hv pth rs r d k -> -> Hr. rewrite columns_ty_leaf, shred_ty_leaf.
    constructor; [|constructor]. apply (rel_val Q HQ); assumption.
  - intros pth rs r d k _ _ _. constructor.
  - intros n rp t' fs v' vs Hv' IHt _ IHfs pth rs r d k Hd Hk Hr.
    rewrite columns_ty_cons, shred_ty_cons. apply Forall2_app; [|apply IHfs; assumption].
    generalize (count_rep_snoc is_nonreq rs rp), (count_rep_snoc is_rep rs rp).
    destruct (shred_field_case rp t' v' r d k Hv') as [v Hv| |v Hnn Hv| |x xs Hx Hxs];
      cbn [is_nonreq is_rep]; intros En Er.
    + apply IHt; [exact Hv|lia|lia|exact Hr].
    + apply null_cols_cols; [exact HQ|lia|lia].
    + apply IHt; [exact Hv|lia|lia|exact Hr].
    + apply null_cols_cols; [exact HQ|lia|lia].
    + apply Forall2_zipcat_list; [exact (rel_app Q HQ)|apply IHt; [exact Hx|lia|lia|lia]|].
      apply Forall_map_impl with (2 := Hxs). intros y Hy. apply IHt; [exact Hy|lia|lia|lia].
Qed.

Theorem levels_bounded fs v i c es :
  has_tyb (TGroup fs) v = true ->
  nth_error (columns fs) i = Some c ->
  nth_error (shred_record fs v) i = Some es ->
  Forall (fun e => entry_levels_ok c e = true) es.
Proof.
  intros Hv Hc Hes.
  assert (H : Forall2 lev_ok (columns fs) (shred_record fs v)).
  { unfold columns, shred_record. apply (shred_ty_cols lev_ok); [|exact Hv|reflexivity|reflexivity|lia].
    constructor.
    - intros pth rs p x r _ Hr. constructor; [|constructor].
      unfold entry_levels_ok, max_def, max_rep. cbn [c_reps mk_entry e_rep e_def e_val]. lia.
    - intros pth rs p r d Hr Hd. constructor; [|constructor].
      unfold entry_levels_ok, max_def, max_rep. cbn [c_reps mk_entry e_rep e_def e_val]. lia.
    - intros c0 a b Ha Hb. apply Forall_app. split; assumption. }
  exact (Forall2_nth_error _ _ _ _ _ _ H Hc Hes).
Qed.

(** ** Record boundaries: exactly one entry with repetition level 0 per record *)

Lemma count_rep0_app a b : count_rep0 (a ++ b) = count_rep0 a + count_rep0 b.
Proof. unfold count_rep0. rewrite filter_app, app_length. lia. Qed.

Lemma col_ok_count_rep0 d es : col_ok 0 d 0 es -> count_rep0 es = 1.
Proof.
  destruct es as [|e rest]; [contradiction|]. intros (Hr & _ & Hrest).
  unfold count_rep0. cbn [filter]. rewrite Hr, (all_gt_filter 0 _ rest Hrest); [reflexivity|].
  intros e' He'. lia.
Qed.

Theorem record_boundaries fs v es :
  has_tyb (TGroup fs) v = true -> In es (shred_record fs v) -> count_rep0 es = 1.
Proof.
  intros Hv Hin. apply (col_ok_count_rep0 0).
  exact (proj1 (Forall_forall _ _) (shred_ty_nonempty (TGroup fs) v 0 0 0 Hv) es Hin).
Qed.

Lemma columns_length fs : length (columns fs) = leaf_count (TGroup fs).
Proof. apply columns_ty_length. Qed.

Lemma shred_record_nth fs v i c :
  has_tyb (TGroup fs) v = true -> nth_error (columns fs) i = Some c ->
  nth_error (shred_record fs v) i = Some (nth i (shred_record fs v) []).
Proof.
  intros Hv Hc. apply nth_error_nth'. unfold shred_record.
  rewrite (shred_ty_length _ v 0 0 0 Hv), <- columns_length. apply nth_error_Some. congruence.
Qed.

Lemma nth_zipcat a b i :
  length a = length b -> nth i (zipcat a b) [] = nth i a [] ++ nth i b [].
Proof.
  revert b i. induction a as [|x a IH]; intros [|y b] i Hl; cbn [length] in Hl; try discriminate.
  - destruct i; reflexivity.
  - destruct i as [|i]; cbn [zipcat nth]; [reflexivity|]. apply IH. lia.
Qed.

Lemma nth_zipcat_list n i css : forall c0,
  Forall (fun c => length c = n) (c0 :: css) ->
  nth i (zipcat_list c0 css) [] = nth i c0 [] ++ flat_map (fun cs => nth i cs []) css.
Proof.
  induction css as [|c1 css IH]; intros c0 H; cbn [zipcat_list flat_map].
  - rewrite app_nil_r. reflexivity.
  - destruct (proj1 (Forall_cons_iff _ _ _) H) as [Hc0 Hrest].
    rewrite nth_zipcat by (rewrite (zipcat_list_length n css c1 Hrest); exact Hc0).
    rewrite IH by exact Hrest. reflexivity.
Qed.

Lemma shred_records_lengths fs vs :
  Forall (fun v => has_tyb (TGroup fs) v = true) vs ->
  Forall (fun cs => length cs = length (columns fs))
         (repeat [] (leaf_count (TGroup fs)) :: map (shred_record fs) vs).
Proof.
  intros Hvs. rewrite columns_length. constructor; [apply repeat_length|].
  apply Forall_map_impl with (2 := Hvs). intros v. apply shred_ty_length.
Qed.

Lemma shred_records_length fs vs :
  Forall (fun v => has_tyb (TGroup fs) v = true) vs -> length (shred_records fs vs) = length (columns fs).
Proof.
  intros Hvs. unfold shred_records. rewrite fold_left_zipcat_list.
  exact (zipcat_list_length _ _ _ (shred_records_lengths fs vs Hvs)).
Qed.

Lemma shred_records_nth fs vs i :
  Forall (fun v => has_tyb (TGroup fs) v = true) vs ->
  nth i (shred_records fs vs) [] = flat_map (fun v => nth i (shred_record fs v) []) vs.
Proof.
  intros Hvs. unfold shred_records. rewrite fold_left_zipcat_list.
  rewrite (nth_zipcat_list _ _ _ _ (shred_records_lengths fs vs Hvs)), nth_repeat. cbn [app].
  rewrite !flat_map_concat_map, map_map. reflexivity.
Qed.

Theorem record_boundaries_all fs vs es :
  Forall (fun v => has_tyb (TGroup fs) v = true) vs ->
  In es (shred_records fs vs) -> count_rep0 es = N.of_nat (length vs).
Proof.
  intros Hvs Hin. apply (In_nth _ _ []) in Hin. destruct Hin as (i & Hi & <-).
  rewrite shred_records_length, columns_length in Hi by exact Hvs. rewrite shred_records_nth by exact Hvs.
  induction Hvs as [|v vs Hv Hvs IH]; [reflexivity|].
  cbn [flat_map length]. rewrite count_rep0_app, IH, (record_boundaries fs v _ Hv); [lia|].
  apply nth_In. unfold shred_record. rewrite (shred_ty_length _ v 0 0 0 Hv). exact Hi.
Qed.

(** ** Sibling columns agree on the structure of their common ancestors *)

(** What a column says about the ancestors down to a node with [dp]
    non-required and [kp] repeated steps on its path: the entries that start
    an element of one of those ancestors, with definition levels capped. *)
Definition proj (dp kp : N) (es : list entry) : list (N * N) :=
  map (fun e => (e_rep e, N.min (e_def e) dp)) (filter (fun e => e_rep e <=? kp) es).

(** The leaf columns below the node reached by the index path [ip]
    (field numbers, outermost first) among the columns [cols] of [t]. *)
Fixpoint sub_cols (ip : list nat) (t : ty) (cols : list (list entry)) : list (list entry) :=
  match ip with
  | [] => cols
  | i :: ip' =>
      match t with
      | TGroup fs =>
          match nth_error fs i with
          | Some (_, _, t') =>
              sub_cols ip' t'
                (firstn (leaf_count t') (skipn (leaf_count (TGroup (firstn i fs))) cols))
          | None => []
          end
      | TLeaf _ => []
      end
  end.

(** Definition and repetition depth of that node (its own repetition included). *)
Fixpoint sub_levels (ip : list nat) (t : ty) (d k : N) : option (N * N) :=
  match ip with
  | [] => Some (d, k)
  | i :: ip' =>
      match t with
      | TGroup fs =>
          match nth_error fs i with
          | Some (_, rp, t') => sub_levels ip' t' (d + nonreqN rp) (k + isrepN rp)
          | None => None
          end
      | TLeaf _ => None
      end
  end.

Fixpoint sub_ty (ip : list nat) (t : ty) : option ty :=
  match ip with
  | [] => Some t
  | i :: ip' =>
      match t with
      | TGroup fs =>
          match nth_error fs i with
          | Some (_, _, t') => sub_ty ip' t'
          | None => None
          end
      | TLeaf _ => None
      end
  end.

Example sub_doc :
  (sub_levels [2%nat] (TGroup doc) 0 0, sub_levels [2%nat; 0%nat] (TGroup doc) 0 0,
   sub_levels [1%nat] (TGroup doc) 0 0) = (Some (1, 1), Some (2, 2), Some (1, 0)) /\
  sub_cols [2%nat] (TGroup doc) (shred_record doc r1) = skipn 3 (shred_record doc r1) /\
  sub_cols [2%nat; 0%nat] (TGroup doc) (shred_record doc r1) = firstn 2 (skipn 3 (shred_record doc r1)) /\
  map (proj 1 1) (sub_cols [2%nat] (TGroup doc) (shred_record doc r1)) =
    repeat [(0, 1); (1, 1); (1, 1)] 3 /\
  map (proj 2 2) (sub_cols [2%nat; 0%nat] (TGroup doc) (shred_record doc r1)) =
    repeat [(0, 2); (2, 2); (1, 1); (1, 2)] 2.
Proof. vm_compute. repeat split; reflexivity. Qed.

Lemma proj_app dp kp a b : proj dp kp (a ++ b) = proj dp kp a ++ proj dp kp b.
Proof. unfold proj. rewrite filter_app, map_app. reflexivity. Qed.

Lemma proj_col_ok r d k es : r <= k -> col_ok r d k es -> proj d k es = [(r, d)].
Proof.
  intros Hrk. destruct es as [|e rest]; [contradiction|]. intros (Hr & Hd & Hrest).
  unfold proj. cbn [filter]. destruct (e_rep e <=? k) eqn:E; [|lia].
  rewrite (all_gt_filter k _ rest Hrest) by (intros e' He'; lia). cbn [map]. rewrite Hr.
  replace (N.min (e_def e) d) with d by lia. reflexivity.
Qed.

Definition agree (dp kp : N) (cols : list (list entry)) : Prop :=
  exists pr, Forall (fun c => proj dp kp c = pr) cols.

Lemma agree_zipcat dp kp a b : agree dp kp a -> agree dp kp b -> agree dp kp (zipcat a b).
Proof.
  intros [pa Ha] [pb Hb]. exists (pa ++ pb).
  eapply zipcat_Forall; [|exact Ha|exact Hb]. cbv beta.
  intros x y Hx Hy. rewrite proj_app, Hx, Hy. reflexivity.
Qed.

Lemma agree_zipcat_list dp kp css : forall c0,
  agree dp kp c0 -> Forall (agree dp kp) css -> agree dp kp (zipcat_list c0 css).
Proof.
  induction css as [|c1 css IH]; intros c0 H0 Hcss; cbn [zipcat_list]; [exact H0|].
  apply Forall_cons_iff in Hcss. destruct Hcss as [H1 Hrest].
  apply agree_zipcat; [exact H0|]. apply IH; assumption.
Qed.

Lemma firstn_zipcat n a b : firstn n (zipcat a b) = zipcat (firstn n a) (firstn n b).
Proof.
  revert a b; induction n as [|n IH]; intros a b; [reflexivity|].
  destruct a as [|x a]; [reflexivity|]. destruct b as [|y b]; [reflexivity|].
  cbn [zipcat firstn]. rewrite IH. reflexivity.
Qed.

Lemma skipn_zipcat n a b : skipn n (zipcat a b) = zipcat (skipn n a) (skipn n b).
Proof.
  revert a b; induction n as [|n IH]; intros a b; [reflexivity|].
  destruct a as [|x a]; [reflexivity|]. destruct b as [|y b].
  - cbn [zipcat skipn]. destruct (skipn n a); reflexivity.
  - cbn [zipcat skipn]. apply IH.
Qed.

Lemma sub_cols_zipcat ip : forall t a b,
  sub_cols ip t (zipcat a b) = zipcat (sub_cols ip t a) (sub_cols ip t b).
Proof.
  induction ip as [|i ip IH]; intros t a b; cbn [sub_cols]; [reflexivity|].
  destruct t as [p|fs]; [reflexivity|].
  destruct (nth_error fs i) as [[[n rp] t']|]; [|reflexivity].
  rewrite skipn_zipcat, firstn_zipcat. apply IH.
Qed.

Lemma sub_cols_zipcat_list ip t css : forall c0,
  sub_cols ip t (zipcat_list c0 css) = zipcat_list (sub_cols ip t c0) (map (sub_cols ip t) css).
Proof.
  induction css as [|c1 css IH]; intros c0; cbn [zipcat_list map]; [reflexivity|].
  rewrite sub_cols_zipcat, IH. reflexivity.
Qed.

Lemma In_firstn {A} n (l : list A) x : In x (firstn n l) -> In x l.
Proof. intros H. rewrite <- (firstn_skipn n l). apply in_or_app. left. exact H. Qed.

Lemma In_skipn {A} n (l : list A) x : In x (skipn n l) -> In x l.
Proof. intros H. rewrite <- (firstn_skipn n l). apply in_or_app. right. exact H. Qed.

Lemma sub_cols_incl ip : forall t cols c, In c (sub_cols ip t cols) -> In c cols.
Proof.
  induction ip as [|i ip IH]; intros t cols c H; cbn [sub_cols] in H; [exact H|].
  destruct t as [p|fs]; [contradiction|].
  destruct (nth_error fs i) as [[[n rp] t']|]; [|contradiction].
  apply IH in H. apply In_firstn in H. apply In_skipn in H. exact H.
Qed.

Lemma agree_sub_null dp kp ip t t' r d : agree dp kp (sub_cols ip t (null_cols t' r d)).
Proof.
  exists (proj dp kp [mk_entry r d None]). apply Forall_forall. intros c Hc.
  apply sub_cols_incl in Hc. rewrite (proj1 (Forall_forall _ _) (null_cols_all t' r d) c Hc). reflexivity.
Qed.

Lemma shred_fields_slice (fs : list (bytes * rept * ty)) : forall i vs n rp t' r d k,
  has_fields fs vs = true -> nth_error fs i = Some (n, rp, t') ->
  exists v', has_field rp t' v' = true /\
    firstn (leaf_count t') (skipn (leaf_count (TGroup (firstn i fs))) (shred_fields fs vs r d k)) =
    shred_field rp t' v' r d k.
Proof.
  induction fs as [|[[n0 rp0] t0] fs IH]; intros i vs n rp t' r d k Hvs Hi.
  - destruct i; discriminate.
  - destruct vs as [|v0 vs]; [discriminate|].
    cbn [has_fields] in Hvs. apply andb_true_iff in Hvs. destruct Hvs as [Hv0 Hvs].
    pose proof (shred_field_length rp0 t0 v0 r d k Hv0) as Hlen.
    cbn [shred_fields]. destruct i as [|i]; cbn [nth_error] in Hi.
    + injection Hi as -> -> ->. exists v0. split; [exact Hv0|].
      cbn [firstn]. rewrite leaf_count_nil. cbn [skipn]. apply firstn_app_len. exact Hlen.
    + destruct (IH i vs n rp t' r d k Hvs Hi) as (v' & Hv' & Heq).
      exists v'. split; [exact Hv'|].
      cbn [firstn]. rewrite leaf_count_cons, skipn_add, (skipn_app_len _ _ _ Hlen). exact Heq.
Qed.

Lemma siblings_gen ip : forall t v r d k dp kp,
  r <= k -> has_tyb t v = true -> sub_levels ip t d k = Some (dp, kp) ->
  agree dp kp (sub_cols ip t (shred_ty t v r d k)).
Proof.
  induction ip as [|i ip IH]; intros t v r d k dp kp Hrk Hv Hlv.
  - cbn [sub_levels] in Hlv. injection Hlv as <- <-. cbn [sub_cols].
    exists [(r, d)]. eapply Forall_impl; [|apply shred_ty_nonempty; exact Hv].
    intros c. apply proj_col_ok. exact Hrk.
  - destruct t as [p|fs]; [discriminate|].
    apply has_tyb_group_inv in Hv. destruct Hv as (vs & -> & Hvs).
    cbn [sub_levels sub_cols] in *.
    destruct (nth_error fs i) as [[[n rp] t']|] eqn:Hi; [|discriminate].
    rewrite shred_ty_group.
    destruct (shred_fields_slice fs i vs n rp t' r d k Hvs Hi) as (v' & Hv' & ->).
    destruct (shred_field_case rp t' v' r d k Hv') as [v Hv| |v Hnn Hv| |x xs Hx Hxs];
      cbn [nonreqN isrepN is_nonreq is_rep] in Hlv; rewrite ?N.add_0_r in Hlv;
      try apply agree_sub_null.
    + apply IH; assumption.
    + apply IH; assumption.
    + rewrite sub_cols_zipcat_list. apply agree_zipcat_list.
      * apply IH; [lia|exact Hx|exact Hlv].
      * rewrite map_map. apply Forall_map_impl with (2 := Hxs).
        intros y Hy. apply IH; [lia|exact Hy|exact Hlv].
Qed.

(** C03 ([C03_siblings_agree]). *)
Theorem siblings_agree fs v ip dp kp c1 c2 :
  has_tyb (TGroup fs) v = true ->
  sub_levels ip (TGroup fs) 0 0 = Some (dp, kp) ->
  In c1 (sub_cols ip (TGroup fs) (shred_record fs v)) ->
  In c2 (sub_cols ip (TGroup fs) (shred_record fs v)) ->
  proj dp kp c1 = proj dp kp c2.
Proof.
  intros Hv Hlv H1 H2.
  destruct (siblings_gen ip (TGroup fs) v 0 0 0 dp kp (N.le_refl 0) Hv Hlv) as [pr Hpr].
  rewrite Forall_forall in Hpr. unfold shred_record in H1, H2.
  rewrite (Hpr c1 H1), (Hpr c2 H2). reflexivity.
Qed.

Lemma leaf_count_firstn_le (fs : list (bytes * rept * ty)) : forall i n rp t',
  nth_error fs i = Some (n, rp, t') ->
  (leaf_count (TGroup (firstn i fs)) + leaf_count t' <= leaf_count (TGroup fs))%nat.
Proof.
  induction fs as [|[[n0 rp0] t0] fs IH]; intros i n rp t' Hi.
  - destruct i; discriminate.
  - destruct i as [|i]; cbn [nth_error] in Hi.
    + injection Hi as -> -> ->. cbn [firstn]. rewrite leaf_count_nil, leaf_count_cons. lia.
    + cbn [firstn]. rewrite !leaf_count_cons. specialize (IH i n rp t' Hi). lia.
Qed.

Lemma sub_cols_length ip : forall t t' cols,
  sub_ty ip t = Some t' -> length cols = leaf_count t ->
  length (sub_cols ip t cols) = leaf_count t'.
Proof.
  induction ip as [|i ip IH]; intros t t' cols Ht Hlen; cbn [sub_ty sub_cols] in *.
  - injection Ht as <-. exact Hlen.
  - destruct t as [p|fs]; [discriminate|].
    destruct (nth_error fs i) as [[[n rp] t1]|] eqn:Hi; [|discriminate].
    apply IH; [exact Ht|].
    pose proof (leaf_count_firstn_le fs i n rp t1 Hi) as Hle.
    rewrite firstn_length, skipn_length. lia.
Qed.

Print Assumptions assemble_shred.
Print Assumptions assemble_shred_record.
Print Assumptions assemble_shred_records.
Print Assumptions levels_bounded.
Print Assumptions record_boundaries.
Print Assumptions record_boundaries_all.
Print Assumptions siblings_agree.
