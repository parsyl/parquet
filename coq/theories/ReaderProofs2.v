(** * ReaderProofs2: one row group and the whole file: the reader model, run
    on the file the writer model produces, returns exactly the written records
    (property C01). *)
From Coq Require Import List NArith ZArith Lia Bool Arith PeanoNat.
From Coq Require Import ZifyN ZifyNat ZifyBool.
From PQ Require Import WriterProofs.
From PQ Require Import Bytes Schema Dremel DremelProofs BitpackProofs Rle RleProofs Plain PlainProofs
     Stats StatsProofs MetaTypes Thrift Meta MetaProofs Writer PageProofs Io Reader ReaderProofs ReaderLayers.
Import ListNotations.
Local Open Scope N_scope.

Lemma find_col_nth cols : forall i c k,
  NoDup (map c_path cols) -> nth_error cols i = Some c ->
  find_col cols (c_path c) k = Some ((k + i)%nat, c).
Proof.
  induction cols as [|c0 cols IH]; intros i c k Hnd Hc; [destruct i; discriminate|].
  cbn [map] in Hnd. inversion Hnd as [|p ps Hnotin Hnd']; subst.
  cbn [find_col]. unfold Reader.path_eqb. destruct i as [|i]; cbn [nth_error] in Hc.
  - inversion Hc; subst c0.
    destruct (list_eq_dec (list_eq_dec N.eq_dec) (c_path c) (c_path c)); [|congruence].
    f_equal. f_equal. lia.
  - destruct (list_eq_dec (list_eq_dec N.eq_dec) (c_path c0) (c_path c)) as [E|E].
    + exfalso. apply Hnotin. rewrite E. apply in_map. exact (nth_error_In _ _ Hc).
    + rewrite (IH i c (S k) Hnd' Hc). f_equal. f_equal. lia.
Qed.

Section WithCodec.

Variable compress : Z -> bytes -> bytes.
Variable decompress : Z -> bytes -> option bytes.
Hypothesis Hcodec : forall c x, codec_ok c -> decompress c (compress c x) = Some x.
Hypothesis Hident : forall x, compress CODEC_UNCOMPRESSED x = x.

Definition col_ess (cfg : config) (i : nat) (recs : list value) : list (list entry) :=
  map (column_entries (cfg_fields cfg) i) (chunk (cfg_max cfg) recs).

Lemma column_pages_eq cfg i c recs :
  column_pages compress cfg i c recs = map (make_page compress (cfg_codec cfg) c) (col_ess cfg i recs).
Proof. unfold column_pages, col_ess. rewrite map_map. reflexivity. Qed.

Lemma concat_col_ess cfg i recs :
  (1 <= cfg_max cfg)%nat -> concat (col_ess cfg i recs) = column_entries (cfg_fields cfg) i recs.
Proof. intros Hmax. unfold col_ess. rewrite column_entries_concat, (proj1 (chunk_spec _ recs Hmax)). reflexivity. Qed.

(** sizes that must fit the int32 fields of a page header *)
Definition page_sizes_ok (codec : Z) (c : col) (es : list entry) : Prop :=
  nlen es + 8 <= 2 ^ 31 /\ nlen (page_payload c es) < 2 ^ 31 /\
  nlen (compress codec (page_payload c es)) < 2 ^ 31.

Definition cfg_ok (cfg : config) : Prop :=
  (1 <= cfg_max cfg)%nat /\ codec_ok (cfg_codec cfg) /\
  ty_okb (TGroup (cfg_fields cfg)) = true /\
  NoDup (map c_path (columns (cfg_fields cfg))) /\
  Forall (fun c => max_def c <= 15 /\ max_rep c <= 15) (columns (cfg_fields cfg)).

Definition batch_ok (cfg : config) (recs : list value) : Prop :=
  recs <> [] /\ Forall (fun v => has_tyb (TGroup (cfg_fields cfg)) v = true) recs /\
  forall i c, nth_error (columns (cfg_fields cfg)) i = Some c ->
              Forall (page_sizes_ok (cfg_codec cfg) c) (col_ess cfg i recs).

Lemma col_pages_pre cfg recs i c :
  cfg_ok cfg -> batch_ok cfg recs -> nth_error (columns (cfg_fields cfg)) i = Some c ->
  Forall (page_pre compress (cfg_codec cfg) c) (col_ess cfg i recs).
Proof.
  intros (Hmax & Hcod & _ & _ & Hdepth) (Hne & Hty & Hsz) Hc.
  specialize (Hsz i c Hc). rewrite Forall_forall in Hsz, Hdepth.
  destruct (Hdepth c (nth_error_In _ _ Hc)) as [Hd Hr].
  apply Forall_forall. intros es Hes. destruct (Hsz es Hes) as (Hs1 & Hs2 & Hs3).
  unfold col_ess in Hes. apply in_map_iff in Hes. destruct Hes as (pg & <- & Hpg).
  pose proof (proj2 (chunk_spec (cfg_max cfg) recs Hmax)) as Hcne.
  pose proof (chunk_Forall _ (cfg_max cfg) recs Hmax Hty) as Hcty.
  rewrite Forall_forall in Hcne, Hcty.
  destruct (column_entries_ok (cfg_fields cfg) pg i c (Hcty pg Hpg) Hc) as (Hwf & _ & _ & Hnon).
  constructor; auto; [exact (Hnon (proj1 (Hcne pg Hpg))) | exact (entries_wf_levels c _ Hwf) | exact (entries_wf_vals c _ Hwf)].
Qed.

Definition batch_bytes (cfg : config) (recs : list value) : bytes :=
  concat (fst (write_batch compress cfg recs)).

Definition col_bytes (cfg : config) (recs : list value) (ic : nat * col) : bytes :=
  chunk_bytes compress (cfg_codec cfg) (snd ic) (col_ess cfg (fst ic) recs).

Lemma concat_page_writes pages :
  concat (flat_map (fun p => [pg_header_bytes p; pg_body p]) pages) = concat (map page_bytes pages).
Proof.
  induction pages as [|p pages IH]; [reflexivity|].
  cbn [flat_map map concat app]. rewrite IH. unfold page_bytes. rewrite <- app_assoc. reflexivity.
Qed.

Lemma writer_reader_chunk_bytes cfg j c b :
  WriterProofs.chunk_bytes (column_pages compress cfg j c b) =
  ReaderProofs.chunk_bytes compress (cfg_codec cfg) c (col_ess cfg j b).
Proof.
  unfold WriterProofs.chunk_bytes, page_writes, ReaderProofs.chunk_bytes.
  rewrite concat_page_writes, column_pages_eq, map_map. reflexivity.
Qed.

Lemma batch_bytes_eq cfg recs :
  batch_bytes cfg recs = concat (map (col_bytes cfg recs) (index_from 0 (columns (cfg_fields cfg)))).
Proof.
  unfold batch_bytes. rewrite write_batch_fst, WriterProofs.concat_page_writes. unfold per_col. rewrite map_map.
  f_equal. apply map_ext. intros [i c]. apply writer_reader_chunk_bytes.
Qed.

Definition chunk_cc_ok (cfg : config) (recs : list value) (ic : nat * col) (cc : column_chunk) : Prop :=
  exists cm, cc_meta cc = Some cm /\ cm_path cm = c_path (snd ic) /\ cm_codec cm = cfg_codec cfg /\
             cm_num_values cm = Z.of_nat (length (concat (col_ess cfg (fst ic) recs))) /\
             cm_total_compressed cm = Z.of_nat (length (col_bytes cfg recs ic)).

Lemma chunk_of_pages_counts cfg recs i c :
  ca_num_values (chunk_of_pages c (column_pages compress cfg i c recs)) = nlen (concat (col_ess cfg i recs)) /\
  ca_compressed (chunk_of_pages c (column_pages compress cfg i c recs)) = nlen (col_bytes cfg recs (i, c)).
Proof.
  rewrite column_pages_eq. unfold chunk_of_pages. cbn [ca_num_values ca_compressed]. split.
  - rewrite map_map. cbn [make_page pg_count]. apply sumN_nlen_concat.
  - rewrite map_map. unfold col_bytes, chunk_bytes. cbn [fst snd]. rewrite <- sumN_nlen_concat, map_map.
    f_equal. apply map_ext. intros es. unfold page_bytes. rewrite nlen_app. reflexivity.
Qed.

Lemma chunks_meta_rel cfg recs (ics : list (nat * col)) : forall pos,
  Forall2 (chunk_cc_ok cfg recs) ics
    (fst (chunks_meta (cfg_codec cfg) pos
            (map (fun '(c, pages) => chunk_of_pages c pages)
                 (map (fun '(i, c) => (c, column_pages compress cfg i c recs)) ics)))).
Proof.
  induction ics as [|[i c] ics IH]; intros pos; [constructor|].
  cbn [map chunks_meta].
  match goal with |- context [chunks_meta ?a ?b ?l] => specialize (IH b); destruct (chunks_meta a b l) as [r p'] end.
  cbn [fst] in IH |- *. constructor; [|exact IH].
  destruct (chunk_of_pages_counts cfg recs i c) as [Hnv Htc].
  eexists. split; [reflexivity|]. cbn [chunk_meta cc_meta cm_path cm_codec cm_num_values cm_total_compressed
                                       chunk_of_pages ca_col fst snd].
  repeat split.
  - change (ca_num_values _) with (ca_num_values (chunk_of_pages c (column_pages compress cfg i c recs))).
    rewrite Hnv. unfold nlen. lia.
  - change (ca_compressed _) with (ca_compressed (chunk_of_pages c (column_pages compress cfg i c recs))).
    rewrite Htc. unfold nlen. lia.
Qed.

Lemma codec_id_of : codec_id decompress.
Proof. intros x. rewrite <- (Hident x) at 1. apply Hcodec. left. reflexivity. Qed.

Lemma make_page_good codec c es :
  page_pre compress codec c es ->
  page_good decompress codec c (page_bytes (make_page compress codec c es), es).
Proof.
  intros Hpre. unfold page_good. cbn [fst snd].
  split; [exact (pp_nonempty _ _ _ _ Hpre)|]. split; [apply page_bytes_pos|].
  split; [exact (pp_levels _ _ _ _ Hpre)|]. split; [exact (pp_typed _ _ _ _ Hpre)|].
  split; [exact (page_strs _ _ _ _ Hpre)|].
  pose proof (pp_codec _ _ _ _ Hpre) as Hc. pose proof (pp_levels _ _ _ _ Hpre) as Hlev.
  pose proof (pp_count _ _ _ _ Hpre) as Hcount.
  destruct (make_page_sizes compress codec c es Hpre) as [Hcs Hus].
  assert (Hloc : forall rest, dec_page_header (pg_header_bytes (make_page compress codec c es) ++ rest) =
                              Some (pg_header (make_page compress codec c es), rest)).
  { intros rest. apply dec_enc_page_header, make_page_header_ok, Hpre. }
  pose proof (page_num_values compress codec c es Hpre) as Hnv.
  unfold page_bytes. destruct (col_required c) eqn:Hreq.
  - apply (req_step_intro decompress codec c (pg_header (make_page compress codec c es)) (page_dph codec c es)); try assumption; try lia.
    + apply codec_id_of.
    + apply supported_make_page.
    + rewrite Hcs, Nat2Z.id. reflexivity.
    + cbn [make_page pg_body]. rewrite Hcodec by exact Hc. unfold page_payload. rewrite Hreq. reflexivity.
    + rewrite Hus. unfold page_payload. rewrite Hreq, Nat2Z.id. reflexivity.
  - pose proof (col_required_false_max_def c Hreq) as Hdef1.
    pose proof (pp_def _ _ _ _ Hpre) as Hdef15. pose proof (pp_rep _ _ _ _ Hpre) as Hrep15.
    set (vals := plain_enc (c_prim c) (entry_vals es)).
    set (dsec := rle_encode (Reader.bit_width (max_def c)) (map e_def es)).
    set (rsec := if 0 <? max_rep c then rle_encode (Reader.bit_width (max_rep c)) (map e_rep es) else []).
    assert (Hpay : page_payload c es = rsec ++ dsec ++ vals) by (unfold page_payload; rewrite Hreq; reflexivity).
    assert (Hwd : forall lv (m : N), (forall e, entry_levels_ok c e = true -> lv e <= m) ->
                  Forall (fun v => v < 2 ^ Reader.bit_width m) (map lv es)).
    { intros lv m Hle. apply Forall_map. eapply Forall_impl; [|exact Hlev]. intros e He.
      apply bit_width_bound, Hle, He. }
    assert (Hn31 : N.of_nat (length es) + 8 <= 2 ^ 31) by exact Hcount.
    apply (opt_step_intro decompress codec c (pg_header (make_page compress codec c es)) (page_dph codec c es) _ _ (page_payload c es)
                          (length rsec) (length dsec)); try assumption; try lia.
    + apply codec_id_of.
    + apply supported_make_page.
    + rewrite Hcs, Nat2Z.id. reflexivity.
    + cbn [make_page pg_body]. apply Hcodec. exact Hc.
    + unfold rsec. destruct (0 <? max_rep c) eqn:Erep; [|reflexivity].
      apply (read_levels_ok _ _ _ 0 (dsec ++ vals)); rewrite ?map_length;
        [apply bit_width_widths; lia | | exact Hn31 | lia | rewrite Hpay; reflexivity | exact Hnv].
      apply Hwd. intros e He. apply entry_levels_ok_inv in He. lia.
    + apply (read_levels_ok _ _ _ _ vals); rewrite ?map_length;
        [apply bit_width_widths; lia | | exact Hn31 | rewrite Hpay, app_length; lia
         | rewrite Hpay; apply skipn_app_exact | exact Hnv].
      apply Hwd. intros e He. apply entry_levels_ok_inv in He. lia.
    + rewrite Hpay, !app_length. lia.
    + rewrite Hpay, skipn_add, !skipn_app_exact. reflexivity.
    + apply (count_max_def_levels c es Hlev).
Qed.

Definition col_pages (cfg : config) (recs : list value) (ic : nat * col) : list (bytes * list entry) :=
  map (fun es => (page_bytes (make_page compress (cfg_codec cfg) (snd ic) es), es)) (col_ess cfg (fst ic) recs).

Definition col_item (cfg : config) (recs : list value) (ic : nat * col) : citem :=
  {| ci_idx := fst ic; ci_col := snd ic; ci_bytes := col_bytes cfg recs ic;
     ci_es := concat (col_ess cfg (fst ic) recs) |}.

Lemma col_item_reads cfg recs cols ic cc :
  chunk_cc_ok cfg recs ic cc -> find_col cols (c_path (snd ic)) 0 = Some ic ->
  Forall (page_pre compress (cfg_codec cfg) (snd ic)) (col_ess cfg (fst ic) recs) ->
  cc_reads decompress cols (col_item cfg recs ic) cc.
Proof.
  intros (cm & Hmeta & Hpath & Hcod & Hnv & Htc) Hfind Hpre.
  exists cm. split; [exact Hmeta|]. rewrite Hpath. split; [destruct ic; exact Hfind|].
  assert (Hb : pbytes (col_pages cfg recs ic) = col_bytes cfg recs ic)
    by (unfold pbytes, col_pages; rewrite map_map; reflexivity).
  assert (He : pentries (col_pages cfg recs ic) = concat (col_ess cfg (fst ic) recs))
    by (unfold pentries, col_pages; rewrite map_map, map_id; reflexivity).
  unfold chunk_reads. cbn [col_item ci_col ci_bytes ci_es]. rewrite <- Hb, <- He.
  apply (read_chunk_good decompress (cfg_codec cfg)); try assumption.
  - unfold col_pages. apply Forall_map. eapply Forall_impl; [|exact Hpre]. apply make_page_good.
  - rewrite He. exact Hnv.
  - rewrite Hb. exact Htc.
Qed.

Definition rg_matches (cfg : config) (recs : list value) (rg : row_group) : Prop :=
  (exists pos, rg_columns rg =
               fst (chunks_meta (cfg_codec cfg) pos (ra_chunks (snd (write_batch compress cfg recs))))) /\
  rg_num_rows rg = Z.of_nat (length recs).

Lemma rg_matches_rel cfg recs rg :
  rg_matches cfg recs rg ->
  Forall2 (chunk_cc_ok cfg recs) (index_from 0 (columns (cfg_fields cfg))) (rg_columns rg).
Proof.
  intros [[pos Hrg] _]. rewrite Hrg. unfold write_batch. cbv zeta. cbn [snd ra_chunks].
  apply chunks_meta_rel.
Qed.

Lemma rg_cols_read cfg recs rg :
  cfg_ok cfg -> batch_ok cfg recs -> rg_matches cfg recs rg ->
  Forall2 (cc_reads decompress (columns (cfg_fields cfg)))
          (map (col_item cfg recs) (index_from 0 (columns (cfg_fields cfg)))) (rg_columns rg).
Proof.
  intros Hcfg Hb Hm. pose proof (rg_matches_rel cfg recs rg Hm) as Hrel.
  pose proof Hcfg as (_ & _ & _ & Hnd & _). set (cols := columns (cfg_fields cfg)) in *.
  eapply Forall2_map_l_In; [|exact Hrel]. intros [i c] cc Hin Hcc.
  destruct (index_from_In cols 0 i c Hin) as [_ Hnth]. rewrite Nat.sub_0_r in Hnth.
  apply col_item_reads; [exact Hcc | exact (find_col_nth cols i c 0 Hnd Hnth) | apply col_pages_pre; assumption].
Qed.

Theorem read_row_group_ok cfg recs rg :
  cfg_ok cfg -> batch_ok cfg recs -> rg_matches cfg recs rg ->
  rg_reads decompress (cfg_fields cfg) rg (batch_bytes cfg recs) recs.
Proof.
  intros Hcfg Hb Hm. pose proof Hcfg as (Hmax & _ & Htyok & _). pose proof Hb as (Hne & Hty & _).
  rewrite batch_bytes_eq, <- (map_map (col_item cfg recs) ci_bytes).
  apply read_row_group_good; [exact (rg_cols_read cfg recs rg Hcfg Hb Hm) | |]; rewrite map_map; cbn [col_item ci_idx ci_es].
  - apply index_from_fst.
  - rewrite <- (map_map fst (fun i => concat (col_ess cfg i recs))), index_from_fst.
    rewrite (map_ext _ _ (fun i => concat_col_ess cfg i recs Hmax)), <- (shred_records_columns _ recs Hty).
    exact (assemble_shred_records _ recs Htyok Hty).
Qed.

Definition batch_rgs (cfg : config) (bs : list (list value)) : list rg_acc :=
  map snd (map (write_batch compress cfg) bs).

Definition footer (cfg : config) (bs : list (list value)) : file_meta := footer_meta cfg (batch_rgs cfg bs).

Definition data_bytes (cfg : config) (bs : list (list value)) : bytes := concat (map (batch_bytes cfg) bs).

Definition footer_len_bytes (cfg : config) (bs : list (list value)) : bytes :=
  le_enc 4 (nlen (enc_file_meta (footer cfg bs)) mod 2 ^ 32).

Lemma file_layout cfg bs :
  file_of_batches compress cfg bs =
  magic ++ data_bytes cfg bs ++ enc_file_meta (footer cfg bs) ++ footer_len_bytes cfg bs ++ magic.
Proof.
  unfold file_of_batches, close_writes, data_bytes, footer_len_bytes, footer, batch_rgs, batch_bytes.
  cbv zeta. cbn [concat]. rewrite app_nil_r, map_map. reflexivity.
Qed.

(** the footer is in the thrift codec's domain and its length fits the 4-byte trailer *)
Definition footer_ok (cfg : config) (bs : list (list value)) : Prop :=
  file_meta_ok (footer cfg bs) = true /\ nlen (enc_file_meta (footer cfg bs)) < 2 ^ 32.

Lemma row_groups_rel cfg bs : forall pos,
  Forall2 (rg_matches cfg) bs (row_groups_meta (cfg_codec cfg) pos (batch_rgs cfg bs)).
Proof.
  unfold batch_rgs. induction bs as [|b bs IH]; intros pos; [constructor|].
  cbn [map row_groups_meta].
  destruct (chunks_meta (cfg_codec cfg) pos (ra_chunks (snd (write_batch compress cfg b)))) as [ccs pos'] eqn:E.
  constructor; [|apply IH]. split.
  - exists pos. rewrite E. reflexivity.
  - cbn [rg_num_rows write_batch snd ra_rows]. unfold nlen. lia.
Qed.

Lemma footer_rows cfg bs : fm_num_rows (footer cfg bs) = Z.of_nat (length (concat bs)).
Proof. unfold footer, batch_rgs. rewrite map_map. apply footer_num_rows. Qed.

Lemma load_nonempty_nil fs s : load_nonempty decompress fs [] s = Ok ([], 0%Z, [], s).
Proof. reflexivity. Qed.

Lemma batches_items cfg : cfg_ok cfg -> forall bs rgs,
  Forall (batch_ok cfg) bs -> Forall2 (rg_matches cfg) bs rgs ->
  exists items, map ri_rg items = rgs /\ rrecs items = concat bs /\ rbytes items = data_bytes cfg bs /\
                Forall (ritem_ok decompress (cfg_fields cfg)) items.
Proof.
  intros Hcfg bs rgs Hbs Hrel. induction Hrel as [|b rg bs rgs Hm _ IH]; [exists []; repeat split; constructor|].
  inversion Hbs as [|b' bs' Hb Hbs']; subst b' bs'.
  destruct (IH Hbs') as (items & H1 & H2 & H3 & H4).
  exists ({| ri_recs := b; ri_rg := rg; ri_bytes := batch_bytes cfg b |} :: items).
  cbn [map]. rewrite rrecs_cons, rbytes_cons, H1, H2, H3. repeat split. constructor; [|exact H4].
  split; [exact (proj2 Hm) | exact (read_row_group_ok cfg b rg Hcfg Hb Hm)].
Qed.

(** ** C01 *)

Theorem write_read_roundtrip_src cfg bs sched :
  cfg_ok cfg -> Forall (batch_ok cfg) bs -> footer_ok cfg bs ->
  read_all_src decompress (cfg_fields cfg) (mk_src (file_of_batches compress cfg bs) sched None) =
  {| o_open_ok := true;
     o_rows := Z.of_nat (length (concat bs));
     o_nexts := N.of_nat (length (concat bs));
     o_err := false; o_panic := false;
     o_recs := concat bs |}.
Proof.
  intros Hcfg Hbs [Hfm Hlen]. pose proof (row_groups_rel cfg bs 4) as Hrel.
  destruct (batches_items cfg Hcfg bs _ Hbs Hrel) as (items & Hrgs & Hrecs & Hbytes & Hok).
  rewrite file_layout, <- Hbytes, <- Hrecs.
  apply (read_all_good decompress (cfg_fields cfg) (footer cfg bs)); try assumption.
  - apply footer_checks_of, Forall_forall. intros rg Hin.
    destruct (Forall2_In_r _ _ _ _ Hrel Hin) as (recs & Hrecs' & Hm). rewrite Forall_forall in Hbs.
    exact (cc_reads_checks decompress _ _ _ (rg_cols_read cfg recs rg Hcfg (Hbs recs Hrecs') Hm)).
  - symmetry. exact Hrgs.
  - rewrite footer_rows, Hrecs. reflexivity.
Qed.

Theorem write_read_roundtrip cfg bs :
  cfg_ok cfg -> Forall (batch_ok cfg) bs -> footer_ok cfg bs ->
  read_all decompress (cfg_fields cfg) (file_of_batches compress cfg bs) =
  {| o_open_ok := true;
     o_rows := Z.of_nat (length (concat bs));
     o_nexts := N.of_nat (length (concat bs));
     o_err := false; o_panic := false;
     o_recs := concat bs |}.
Proof. intros Hcfg Hbs Hft. unfold read_all. apply write_read_roundtrip_src; assumption. Qed.

(** ** The hypotheses as boolean checks (for [vm_compute] on concrete inputs) *)

Fixpoint nodupb (l : list (list bytes)) : bool :=
  match l with
  | [] => true
  | x :: r => negb (existsb (Reader.path_eqb x) r) && nodupb r
  end.

Lemma nodupb_sound l : nodupb l = true -> NoDup l.
Proof.
  induction l as [|x l IH]; intros H; [constructor|].
  cbn [nodupb] in H. apply andb_prop in H. destruct H as [Hx Hl]. constructor; [|apply IH; exact Hl].
  intros Hin. apply negb_true_iff in Hx.
  assert (Hex : existsb (Reader.path_eqb x) l = true).
  { apply existsb_exists. exists x. split; [exact Hin|]. unfold Reader.path_eqb.
    destruct (list_eq_dec (list_eq_dec N.eq_dec) x x); congruence. }
  congruence.
Qed.

Definition codec_okb (c : Z) : bool :=
  Z.eqb c CODEC_UNCOMPRESSED || Z.eqb c CODEC_SNAPPY || Z.eqb c CODEC_GZIP.

Lemma codec_okb_iff z : codec_okb z = true <-> codec_ok z.
Proof. unfold codec_okb, codec_ok. cbn [In]. rewrite !orb_true_iff, !Z.eqb_eq. intuition congruence. Qed.

Definition cfg_okb (cfg : config) : bool :=
  Nat.leb 1 (cfg_max cfg) && codec_okb (cfg_codec cfg) && ty_okb (TGroup (cfg_fields cfg))
  && nodupb (map c_path (columns (cfg_fields cfg)))
  && forallb (fun c => (max_def c <=? 15) && (max_rep c <=? 15)) (columns (cfg_fields cfg)).

Lemma cfg_okb_sound cfg : cfg_okb cfg = true -> cfg_ok cfg.
Proof.
  unfold cfg_okb, cfg_ok. intros H.
  apply andb_prop in H. destruct H as [H H5]. apply andb_prop in H. destruct H as [H H4].
  apply andb_prop in H. destruct H as [H H3]. apply andb_prop in H. destruct H as [H1 H2].
  split; [apply Nat.leb_le; exact H1|]. split; [apply codec_okb_iff; exact H2|].
  split; [exact H3|]. split; [apply nodupb_sound; exact H4|].
  revert H5. apply forallb_impl. intros c. lia.
Qed.

Definition page_sizes_okb (codec : Z) (c : col) (es : list entry) : bool :=
  (nlen es + 8 <=? 2 ^ 31) && (nlen (page_payload c es) <? 2 ^ 31)
  && (nlen (compress codec (page_payload c es)) <? 2 ^ 31).

Definition batch_okb (cfg : config) (recs : list value) : bool :=
  negb (Nat.eqb (length recs) 0) && forallb (has_tyb (TGroup (cfg_fields cfg))) recs
  && forallb (fun ic : nat * col => forallb (page_sizes_okb (cfg_codec cfg) (snd ic)) (col_ess cfg (fst ic) recs))
             (index_from 0 (columns (cfg_fields cfg))).

Lemma batch_okb_sound cfg recs : batch_okb cfg recs = true -> batch_ok cfg recs.
Proof.
  unfold batch_okb, batch_ok. intros H.
  apply andb_prop in H. destruct H as [H H3]. apply andb_prop in H. destruct H as [H1 H2].
  split; [|split].
  - intros ->. discriminate.
  - apply forallb_Forall. exact H2.
  - intros i c Hc. rewrite forallb_forall in H3.
    specialize (H3 (i, c) (nth_error_In _ _ (index_from_nth _ 0%nat i c Hc))). cbn [fst snd] in H3.
    apply Forall_forall. intros es Hes. rewrite forallb_forall in H3. specialize (H3 es Hes).
    unfold page_sizes_okb in H3. unfold page_sizes_ok. lia.
Qed.

Definition footer_okb (cfg : config) (bs : list (list value)) : bool :=
  file_meta_ok (footer cfg bs) && (nlen (enc_file_meta (footer cfg bs)) <? 2 ^ 32).

Lemma footer_okb_sound cfg bs : footer_okb cfg bs = true -> footer_ok cfg bs.
Proof.
  unfold footer_okb, footer_ok. intros H. apply andb_prop in H. destruct H as [H1 H2].
  split; [exact H1 | lia].
Qed.

Corollary write_read_roundtrip_checked cfg bs :
  cfg_okb cfg = true -> forallb (batch_okb cfg) bs = true -> footer_okb cfg bs = true ->
  read_all decompress (cfg_fields cfg) (file_of_batches compress cfg bs) =
  {| o_open_ok := true;
     o_rows := Z.of_nat (length (concat bs));
     o_nexts := N.of_nat (length (concat bs));
     o_err := false; o_panic := false;
     o_recs := concat bs |}.
Proof.
  intros H1 H2 H3. apply write_read_roundtrip.
  - apply cfg_okb_sound. exact H1.
  - apply Forall_forall. intros b Hb. rewrite forallb_forall in H2. apply batch_okb_sound, H2, Hb.
  - apply footer_okb_sound. exact H3.
Qed.

End WithCodec.

(** ** The hypotheses are satisfiable: a small configuration (one optional
    int32 column, one repeated bool column, one required string column; pages
    of two records; three row groups), identity codec *)
Module Example.
Definition cid (c : Z) (b : bytes) : bytes := b.
Definition did (c : Z) (b : bytes) : option bytes := Some b.
Definition fs0 : list field :=
  [ ([97], Opt, TLeaf PInt32); ([98], Rep, TLeaf PBool); ([99], Req, TLeaf PString) ].
Definition cfg0 : config := {| cfg_fields := fs0; cfg_max := 2; cfg_codec := CODEC_UNCOMPRESSED |}.
Definition r1 : value := VGroup [VNum 5; VList [VNum 1; VNum 0; VNum 1]; VStr [1; 2; 3]].
Definition r2 : value := VGroup [VNull; VList []; VStr []].
Definition r3 : value := VGroup [VNum 4294967295; VList [VNum 1]; VStr [7]].
Definition bs0 : list (list value) := [[r1; r2; r3]; [r2]; [r3; r1]].

Example hyps_hold :
  cfg_okb cfg0 = true /\ forallb (batch_okb cid cfg0) bs0 = true /\ footer_okb cid cfg0 bs0 = true.
Proof. vm_compute. repeat split. Qed.

Example roundtrip_instance :
  o_recs (read_all did fs0 (file_of_batches cid cfg0 bs0)) = concat bs0.
Proof.
  destruct hyps_hold as (H1 & H2 & H3). change fs0 with (cfg_fields cfg0).
  rewrite (write_read_roundtrip_checked cid did (fun c x _ => eq_refl) (fun x => eq_refl) cfg0 bs0 H1 H2 H3).
  reflexivity.
Qed.

Example roundtrip_eval :
  read_all did fs0 (file_of_batches cid cfg0 bs0) =
  {| o_open_ok := true; o_rows := 6; o_nexts := 6; o_err := false; o_panic := false; o_recs := concat bs0 |}.
Proof. vm_compute. reflexivity. Qed.

(** [Hident] is needed: a codec pair that satisfies [Hcodec] but pads
    UNCOMPRESSED payloads makes the reader fail (pageData reads
    [uncompressed_size] bytes and never calls the decoder for codec 0) *)
Definition cbad (c : Z) (b : bytes) : bytes := if Z.eqb c 0 then b ++ [0] else b.
Definition dbad (c : Z) (b : bytes) : option bytes := if Z.eqb c 0 then Some (removelast b) else Some b.

Lemma bad_codec_inverse c x : dbad c (cbad c x) = Some x.
Proof. unfold dbad, cbad. destruct (Z.eqb c 0); [rewrite removelast_last|]; reflexivity. Qed.

Example ident_needed :
  o_open_ok (read_all dbad [([99], Req, TLeaf PInt32)]
               (file_of_batches cbad {| cfg_fields := [([99], Req, TLeaf PInt32)]; cfg_max := 2;
                                        cfg_codec := CODEC_UNCOMPRESSED |}
                                     [[VGroup [VNum 5]; VGroup [VNum 5]; VGroup [VNum 5]]])) = false.
Proof. vm_compute. reflexivity. Qed.
End Example.

Print Assumptions read_row_group_ok.
Print Assumptions write_read_roundtrip_src.
Print Assumptions write_read_roundtrip.
Print Assumptions write_read_roundtrip_checked.
Print Assumptions Example.roundtrip_instance.
