(** * StatsProofs: soundness of the page statistics written by the field
    templates (property C12). *)
From Coq Require Import List NArith ZArith Lia Bool Arith PeanoNat.
From Coq Require Import ZifyN ZifyNat ZifyBool.
From PQ Require Import Bytes Schema MetaTypes Rle Plain Stats PlainProofs.
Import ListNotations.
Local Open Scope N_scope.

(** ** The least element of a list under a boolean order

    Both accumulators keep a running minimum [if lt v m then v else m] and,
    mirrored, a running maximum.  [lt] need only be a strict order on the
    [good] elements (for floats the non-NaN patterns) and false elsewhere.
    The maximum is the minimum for the converse order, so one fold and one
    specification serve both. *)
Section Least.
Context {A : Type} (good : A -> Prop).

Record bool_order (lt : A -> A -> bool) : Prop := {
  bo_good : forall a b, lt a b = true -> good a /\ good b;
  bo_irrefl : forall a, lt a a = false;
  bo_asym : forall a b, lt a b = true -> lt b a = false;
  (* [a <= b <= c] with [x <= y] read as [lt y x = false] *)
  bo_le_trans : forall a b c, good b -> lt b a = false -> lt c b = false -> lt c a = false
}.

Lemma bool_order_conv lt : bool_order lt -> bool_order (fun a b => lt b a).
Proof.
  intros [G I S T]. split.
  - intros a b H. apply and_comm, G, H.
  - exact I.
  - intros a b. apply S.
  - intros a b c Hb H1 H2. exact (T c b a Hb H2 H1).
Qed.

Definition least (lt : A -> A -> bool) (m : A) (vs : list A) : A :=
  fold_left (fun m v => if lt v m then v else m) vs m.

Lemma least_cons lt m v vs : least lt m (v :: vs) = least lt (if lt v m then v else m) vs.
Proof. reflexivity. Qed.

Lemma least_ind lt (P : A -> Prop) vs : forall m, P m -> Forall P vs -> P (least lt m vs).
Proof.
  induction vs as [|v vs IH]; intros m Hm Hvs; [exact Hm|].
  rewrite least_cons. apply IH; [|exact (Forall_inv_tail Hvs)].
  destruct (lt v m); [exact (Forall_inv Hvs) | exact Hm].
Qed.

Lemma least_spec lt vs : bool_order lt -> forall m, good m ->
  good (least lt m vs) /\ lt m (least lt m vs) = false /\
  forall v, In v vs -> good v -> lt v (least lt m vs) = false.
Proof.
  intros [G I S T]. induction vs as [|v vs IH]; intros m Hm.
  - split; [exact Hm|]. split; [apply I | intros v []].
  - rewrite least_cons. set (m' := if lt v m then v else m).
    assert (H : good m' /\ lt m m' = false /\ (good v -> lt v m' = false)).
    { subst m'. destruct (lt v m) eqn:E.
      - split; [apply (G v m E)|]. split; [apply S, E | intros _; apply I].
      - split; [exact Hm|]. split; [apply I | intros _; exact E]. }
    destruct H as (Gm' & Hm' & Hv). destruct (IH m' Gm') as (Gr & Hr & B).
    split; [exact Gr|]. split; [exact (T _ m' m Gm' Hr Hm')|].
    intros w [<-|Hw] Gw; [exact (T _ m' v Gm' Hr (Hv Gw)) | exact (B w Hw Gw)].
Qed.
End Least.

(** ** The order of a column type, through a key into [Z] *)

Definition prim_key (p : prim) (a : N) : Z :=
  match p with
  | PInt32 => signZ 32 a
  | PInt64 => signZ 64 a
  | PUint32 | PUint64 | PBool => Z.of_N a
  | PFloat32 | PFloat64 => flt_key (ebits_of p) (mbits_of p) a
  | PString => 0%Z
  end.

(** Go's [<]: false as soon as one side is NaN, the order of the keys otherwise. *)
Lemma prim_lt_key p a b :
  prim_lt p a b =
  negb (prim_is_nan p a) && negb (prim_is_nan p b) && (prim_key p a <? prim_key p b)%Z.
Proof.
  destruct p; cbn [prim_lt prim_is_nan prim_key negb andb]; try reflexivity;
    unfold N.ltb, Z.ltb; rewrite N2Z.inj_compare; reflexivity.
Qed.

Lemma prim_lt_nan_l p a b : prim_is_nan p a = true -> prim_lt p a b = false.
Proof. intros H. rewrite prim_lt_key, H. reflexivity. Qed.

Lemma prim_lt_nan_r p a b : prim_is_nan p b = true -> prim_lt p a b = false.
Proof. intros H. rewrite prim_lt_key, H. apply andb_false_intro1, andb_false_r. Qed.

Lemma prim_lt_nonnan p a b :
  prim_is_nan p a = false -> prim_is_nan p b = false ->
  prim_lt p a b = (prim_key p a <? prim_key p b)%Z.
Proof. intros Ha Hb. rewrite prim_lt_key, Ha, Hb. reflexivity. Qed.

Lemma prim_lt_true p a b :
  prim_lt p a b = true ->
  prim_is_nan p a = false /\ prim_is_nan p b = false /\ (prim_key p a < prim_key p b)%Z.
Proof.
  intros H. destruct (prim_is_nan p a) eqn:Ha; [rewrite prim_lt_nan_l in H by exact Ha; discriminate|].
  destruct (prim_is_nan p b) eqn:Hb; [rewrite prim_lt_nan_r in H by exact Hb; discriminate|].
  rewrite prim_lt_nonnan in H by assumption. apply Z.ltb_lt in H. auto.
Qed.

Lemma prim_lt_irrefl p a : prim_lt p a a = false.
Proof. rewrite prim_lt_key, Z.ltb_irrefl. apply andb_false_r. Qed.

Lemma prim_lt_trans p a b c :
  prim_lt p a b = true -> prim_lt p b c = true -> prim_lt p a c = true.
Proof.
  intros H1 H2. apply prim_lt_true in H1, H2.
  destruct H1 as (Ha & _ & H1), H2 as (_ & Hc & H2).
  rewrite prim_lt_nonnan by assumption. apply Z.ltb_lt. exact (Z.lt_trans _ _ _ H1 H2).
Qed.

Lemma prim_lt_asym p a b : prim_lt p a b = true -> prim_lt p b a = false.
Proof.
  intros H. apply prim_lt_true in H. destruct H as (Ha & Hb & H).
  rewrite prim_lt_nonnan by assumption. apply Z.ltb_ge, Z.lt_le_incl, H.
Qed.

Lemma prim_le_trans p a b c :
  prim_is_nan p b = false ->
  prim_lt p b a = false -> prim_lt p c b = false -> prim_lt p c a = false.
Proof.
  intros Hb H1 H2. apply not_true_iff_false. intros H.
  apply prim_lt_true in H. destruct H as (Hc & Ha & H).
  rewrite prim_lt_nonnan in H1, H2 by assumption. apply Z.ltb_ge in H1, H2.
  exact (Z.lt_irrefl _ (Z.lt_le_trans _ _ _ H (Z.le_trans _ _ _ H1 H2))).
Qed.

Lemma prim_lt_total p a b c :
  prim_is_nan p a = false -> prim_is_nan p b = false ->
  prim_lt p a b = false -> prim_lt p b a = false ->
  prim_lt p c a = prim_lt p c b /\ prim_lt p a c = prim_lt p b c.
Proof.
  intros Ha Hb H1 H2. rewrite prim_lt_nonnan in H1, H2 by assumption.
  apply Z.ltb_ge in H1, H2.
  rewrite !prim_lt_key, Ha, Hb, (Z.le_antisymm _ _ H2 H1). split; reflexivity.
Qed.

Lemma prim_order p : bool_order (fun a => prim_is_nan p a = false) (prim_lt p).
Proof.
  split.
  - intros a b H. apply prim_lt_true in H. tauto.
  - apply prim_lt_irrefl.
  - apply prim_lt_asym.
  - apply prim_le_trans.
Qed.

Lemma signZ_inj bits a b : a < 2 ^ bits -> b < 2 ^ bits -> signZ bits a = signZ bits b -> a = b.
Proof.
  unfold signZ. replace (2 ^ Z.of_N bits)%Z with (Z.of_N (2 ^ bits)) by apply N2Z.inj_pow.
  generalize (2 ^ bits). intros m Ha Hb.
  destruct (a <? 2 ^ (bits - 1)), (b <? 2 ^ (bits - 1)); lia.
Qed.

Lemma prim_key_inj_int p a b :
  p = PInt32 \/ p = PInt64 \/ p = PUint32 \/ p = PUint64 ->
  a < 2 ^ prim_bits p -> b < 2 ^ prim_bits p ->
  prim_key p a = prim_key p b -> a = b.
Proof.
  intros [->|[->|[->| ->]]]; cbn [prim_key prim_bits];
    [apply signZ_inj | apply signZ_inj | intros _ _; apply N2Z.inj ..].
Qed.

Lemma prim_lt_total_int p a b :
  p = PInt32 \/ p = PInt64 \/ p = PUint32 \/ p = PUint64 ->
  a < 2 ^ prim_bits p -> b < 2 ^ prim_bits p ->
  prim_lt p a b = false -> prim_lt p b a = false -> a = b.
Proof.
  intros Hp Ha Hb H1 H2. apply (prim_key_inj_int p a b Hp Ha Hb).
  assert (Hnan : forall x, prim_is_nan p x = false)
    by (intros x; destruct Hp as [->|[->|[->| ->]]]; reflexivity).
  rewrite prim_lt_nonnan in H1, H2 by apply Hnan. apply Z.ltb_ge in H1, H2.
  exact (Z.le_antisymm _ _ H2 H1).
Qed.

(** ** The byte-string order *)

Lemma bytes_lt_irrefl a : bytes_lt a a = false.
Proof.
  induction a as [|x a IH]; cbn [bytes_lt]; [reflexivity|].
  rewrite N.ltb_irrefl. exact IH.
Qed.

Lemma bytes_lt_cons x a y b :
  bytes_lt (x :: a) (y :: b) =
  match x ?= y with Lt => true | Eq => bytes_lt a b | Gt => false end.
Proof.
  cbn [bytes_lt]. unfold N.ltb. rewrite (N.compare_antisym x y).
  destruct (x ?= y); reflexivity.
Qed.

Lemma bytes_lt_trans a b c :
  bytes_lt a b = true -> bytes_lt b c = true -> bytes_lt a c = true.
Proof.
  revert b c. induction a as [|x a IH]; intros [|y b] [|z c];
    try (cbn [bytes_lt]; intros; congruence).
  rewrite !bytes_lt_cons.
  destruct (N.compare_spec x y) as [<-|Hxy|_]; [| |discriminate].
  - destruct (x ?= z); [apply IH | trivial..].
  - intros _. destruct (N.compare_spec y z) as [<-|Hyz|_]; [| |discriminate]; intros _.
    + rewrite (proj2 (N.compare_lt_iff _ _) Hxy). reflexivity.
    + rewrite (proj2 (N.compare_lt_iff _ _) (N.lt_trans _ _ _ Hxy Hyz)). reflexivity.
Qed.

Lemma bytes_lt_total a b : bytes_lt a b = false -> bytes_lt b a = false -> a = b.
Proof.
  revert b. induction a as [|x a IH]; intros [|y b];
    try (cbn [bytes_lt]; intros; congruence).
  rewrite !bytes_lt_cons, (N.compare_antisym x y).
  destruct (N.compare_spec x y) as [<-|_|_]; cbn [CompOpp]; try discriminate.
  intros H1 H2. rewrite (IH b H1 H2). reflexivity.
Qed.

Lemma bytes_lt_asym a b : bytes_lt a b = true -> bytes_lt b a = false.
Proof.
  intros Hab. destruct (bytes_lt b a) eqn:Hba; [|reflexivity].
  pose proof (bytes_lt_trans a b a Hab Hba) as H.
  rewrite bytes_lt_irrefl in H. discriminate.
Qed.

Lemma bytes_le_trans a b c :
  bytes_lt b a = false -> bytes_lt c b = false -> bytes_lt c a = false.
Proof.
  intros Hab Hbc.
  destruct (bytes_lt c a) eqn:Hca; [|reflexivity].
  destruct (bytes_lt a b) eqn:Hlt.
  - rewrite (bytes_lt_trans c a b Hca Hlt) in Hbc. discriminate.
  - pose proof (bytes_lt_total a b Hlt Hab) as He. subst b. congruence.
Qed.

Lemma bytes_order : bool_order (fun _ => True) bytes_lt.
Proof.
  split.
  - split; exact I.
  - apply bytes_lt_irrefl.
  - apply bytes_lt_asym.
  - intros a b c _. apply bytes_le_trans.
Qed.

(** ** The entries of a page *)

Definition pvals (maxdef : N) (entries : list entry) : list value :=
  flat_map (fun e => match e_val e with
                     | Some v => if is_value maxdef e then [v] else []
                     | None => [] end) entries.

Definition pnils (maxdef : N) (entries : list entry) : N :=
  nlen (filter (fun e => negb (is_value maxdef e)) entries).

Definition entry_ok (p : prim) (maxdef : N) (e : entry) : Prop :=
  (exists v, e_val e = Some v /\ is_value maxdef e = true /\ leaf_ok p v) \/
  (e_val e = None /\ is_value maxdef e = false).

(** A page as the templates accumulate it: an entry carries a (well-typed)
    value exactly when its definition level is the maximum; a required column
    has max definition level 0 and a written page holds at least one record. *)
Definition entries_ok (p : prim) (required : bool) (maxdef : N) (entries : list entry) : Prop :=
  Forall (entry_ok p maxdef) entries /\
  (required = true -> maxdef = 0 /\ entries <> []).

Definition entry_okb (p : prim) (maxdef : N) (e : entry) : bool :=
  match e_val e with
  | Some v => is_value maxdef e && prim_ok p v
  | None => negb (is_value maxdef e)
  end.

Definition entries_okb (p : prim) (required : bool) (maxdef : N) (entries : list entry) : bool :=
  forallb (entry_okb p maxdef) entries &&
  (if required then (maxdef =? 0) && negb (Nat.eqb (length entries) 0) else true).

Lemma entries_okb_sound p required maxdef entries :
  entries_okb p required maxdef entries = true -> entries_ok p required maxdef entries.
Proof.
  unfold entries_okb, entries_ok. intros H.
  apply andb_prop in H. destruct H as [H1 H2]. split.
  - rewrite forallb_forall in H1. apply Forall_forall. intros e He.
    specialize (H1 e He). unfold entry_okb in H1. unfold entry_ok.
    destruct (e_val e) as [v|].
    + apply andb_prop in H1. destruct H1 as [Ha Hb]. left. exists v. auto.
    + right. split; [reflexivity|]. destruct (is_value maxdef e); [discriminate | reflexivity].
  - intros Hr. subst required. apply andb_prop in H2. destruct H2 as [Ha Hb].
    split; [lia|]. intros He. subst entries. discriminate.
Qed.

Lemma is_value_maxdef0 e : is_value 0 e = true.
Proof. unfold is_value. destruct (e_def e); reflexivity. Qed.

Lemma entries_ok_required_all_values p maxdef entries :
  entries_ok p true maxdef entries -> Forall (fun e => e_val e <> None) entries.
Proof.
  intros [Hall Hreq]. destruct (Hreq eq_refl) as [Hm _]. subst maxdef.
  rewrite Forall_forall in *. intros e He.
  destruct (Hall e He) as [[v [Hv _]]|[_ Hn]].
  - congruence.
  - rewrite is_value_maxdef0 in Hn. discriminate.
Qed.

Lemma pvals_cons maxdef e entries :
  pvals maxdef (e :: entries) =
  (match e_val e with
   | Some v => if is_value maxdef e then [v] else []
   | None => [] end) ++ pvals maxdef entries.
Proof. reflexivity. Qed.

Lemma pvals_ok p maxdef entries :
  Forall (entry_ok p maxdef) entries -> Forall (leaf_ok p) (pvals maxdef entries).
Proof.
  induction 1 as [|e entries He Hes IH].
  - constructor.
  - rewrite pvals_cons. apply Forall_app. split; [|exact IH].
    destruct He as [[v [Hv [Hi Hl]]]|[Hv Hi]]; rewrite Hv.
    + rewrite Hi. constructor; [exact Hl | constructor].
    + constructor.
Qed.

Lemma pvals_required_nonempty p maxdef entries :
  entries_ok p true maxdef entries -> pvals maxdef entries <> [].
Proof.
  intros [Hall Hreq]. destruct (Hreq eq_refl) as [Hm Hne]. subst maxdef.
  destruct entries as [|e entries]; [congruence|].
  rewrite pvals_cons.
  destruct (Forall_inv Hall) as [[v [Hv [Hi Hl]]]|[_ Hi]].
  - rewrite Hv, Hi. discriminate.
  - rewrite is_value_maxdef0 in Hi. discriminate.
Qed.

Lemma pvals_no_value maxdef entries :
  Forall (fun e => e_val e = None) entries -> pvals maxdef entries = [].
Proof.
  induction 1 as [|e entries He Hes IH]; [reflexivity|].
  rewrite pvals_cons, He, IH. reflexivity.
Qed.

Lemma pnils_no_value p maxdef entries :
  Forall (entry_ok p maxdef) entries ->
  pnils maxdef entries =
  nlen (filter (fun e => match e_val e with None => true | Some _ => false end) entries).
Proof.
  intros Hall. unfold pnils. f_equal. apply filter_ext_in. intros e He.
  rewrite Forall_forall in Hall.
  destruct (Hall e He) as [[v [Hv [Hi _]]]|[Hv Hi]]; rewrite Hv, Hi; reflexivity.
Qed.

(** ** Characterisation of [page_stats] and [stats_sound] *)

(** the check [stats_sound] makes of one bound; [le b x] compares the bound
    with a value: [prim_le_bytes] for the minimum, its converse for the maximum *)
Definition bound_ok (p : prim) (vals : list value) (le : bytes -> bytes -> bool)
    (o : option bytes) : bool :=
  match o with
  | Some b =>
      negb (Nat.eqb (length vals) 0) && bound_wf p b &&
      forallb (fun v => le b (value_bytes_of p v))
              (filter (fun v => negb (prim_is_nan p (num_of v))) vals)
  | None => true
  end.

Lemma stats_sound_eq p maxdef entries st :
  stats_sound p maxdef entries st =
  (match st_null_count st with
   | Some n => Z.eqb n (Z.of_N (pnils maxdef entries))
   | None => true end)
  && bound_ok p (pvals maxdef entries) (prim_le_bytes p) (st_min_value st)
  && bound_ok p (pvals maxdef entries) (fun mx x => prim_le_bytes p x mx) (st_max_value st).
Proof. reflexivity. Qed.

Lemma length_nonzero {A} (l : list A) : l <> [] -> negb (Nat.eqb (length l) 0) = true.
Proof. destruct l as [|x l]; [congruence | reflexivity]. Qed.

Lemma bound_ok_intro p vals le b :
  vals <> [] -> bound_wf p b = true ->
  (forall v, In v vals -> prim_is_nan p (num_of v) = false -> le b (value_bytes_of p v) = true) ->
  bound_ok p vals le (Some b) = true.
Proof.
  intros Hne Hwf Hle. cbn [bound_ok]. rewrite Hwf, (length_nonzero _ Hne). cbn [andb].
  apply forallb_forall. intros v Hv. apply filter_In in Hv. destruct Hv as [Hin Hnan].
  apply Hle; [exact Hin | apply negb_true_iff; exact Hnan].
Qed.

Definition num_fold (p : prim) (vals : list value) : num_stats :=
  fold_left (num_stats_add p) (map num_of vals) (num_stats_new p).

Definition num_present (p : prim) (required : bool) (vals : list value) : bool :=
  if required then true else negb (ns_non_nils (num_fold p vals) =? 0).

Definition str_fold (vals : list value) : str_stats :=
  fold_left str_stats_add (map str_of vals) str_stats_new.

Lemma page_stats_numeric p required maxdef entries :
  numeric p ->
  page_stats p required maxdef entries =
  let vals := pvals maxdef entries in
  {| st_max := None; st_min := None;
     st_null_count := if required then None else Some (Z.of_N (pnils maxdef entries));
     st_distinct_count := None;
     st_max_value := if num_present p required vals
                     then Some (le_enc (prim_size p) (ns_max (num_fold p vals))) else None;
     st_min_value := if num_present p required vals
                     then Some (le_enc (prim_size p) (ns_min (num_fold p vals))) else None |}.
Proof. intros Hp. destruct p; try contradiction; reflexivity. Qed.

Lemma page_stats_string required maxdef entries :
  page_stats PString required maxdef entries =
  let s := str_fold (pvals maxdef entries) in
  {| st_max := None; st_min := None;
     st_null_count := if required then None else Some (Z.of_N (pnils maxdef entries));
     st_distinct_count := None;
     st_max_value := if ss_seen s then Some (ss_max s) else None;
     st_min_value := if ss_seen s then Some (ss_min s) else None |}.
Proof. reflexivity. Qed.

Lemma page_stats_bool required maxdef entries :
  page_stats PBool required maxdef entries =
  {| st_max := None; st_min := None;
     st_null_count := if required then None else Some (Z.of_N (pnils maxdef entries));
     st_distinct_count := None; st_max_value := None; st_min_value := None |}.
Proof. destruct required; reflexivity. Qed.

Lemma page_stats_null_count p required maxdef entries :
  st_null_count (page_stats p required maxdef entries) =
  if required then None else Some (Z.of_N (pnils maxdef entries)).
Proof. destruct p, required; reflexivity. Qed.

Lemma page_stats_null_count_entries p required maxdef entries :
  entries_ok p required maxdef entries ->
  st_null_count (page_stats p required maxdef entries) =
  if required then None
  else Some (Z.of_N (nlen (filter (fun e => match e_val e with None => true | Some _ => false end)
                                  entries))).
Proof.
  intros [Hall _]. rewrite page_stats_null_count.
  rewrite (pnils_no_value p maxdef entries Hall). reflexivity.
Qed.

(** ** Numeric accumulator *)

Lemma num_fold_eq p vs : forall s,
  fold_left (num_stats_add p) vs s =
  {| ns_min := least (prim_lt p) (ns_min s) vs;
     ns_max := least (fun a b => prim_lt p b a) (ns_max s) vs;
     ns_nils := ns_nils s; ns_non_nils := ns_non_nils s + nlen vs |}.
Proof.
  induction vs as [|v vs IH]; intros s.
  - destruct s as [mn mx k n]. unfold least. cbn [fold_left ns_min ns_max ns_nils ns_non_nils].
    f_equal. symmetry. apply N.add_0_r.
  - cbn [fold_left]. rewrite IH. unfold num_stats_add.
    cbn [ns_min ns_max ns_nils ns_non_nils]. rewrite !least_cons. f_equal.
    unfold nlen. cbn [length]. lia.
Qed.

Lemma num_present_eq p required vals :
  num_present p required vals = required || negb (Nat.eqb (length vals) 0).
Proof.
  unfold num_present, num_fold. rewrite num_fold_eq. destruct required, vals; reflexivity.
Qed.

Lemma num_stats_new_ok p :
  (prim_is_nan p (prim_max_const p) = false /\ prim_max_const p < 2 ^ prim_bits p) /\
  (prim_is_nan p 0 = false /\ 0 < 2 ^ prim_bits p).
Proof. destruct p; repeat split. Qed.

Lemma leaf_ok_nums p vals :
  numeric p -> Forall (leaf_ok p) vals ->
  Forall (fun v => v < 2 ^ prim_bits p) (map num_of vals).
Proof.
  intros Hp Hvals. rewrite Forall_map.
  rewrite Forall_forall in *. intros v Hv.
  destruct (leaf_ok_numeric p v Hp (Hvals v Hv)) as [n [Hn Hb]]. subst v. exact Hb.
Qed.

Lemma prim_le_bytes_numeric p a b :
  numeric p -> prim_le_bytes p a b = negb (prim_lt p (le_dec b) (le_dec a)).
Proof. intros Hp. destruct p; try contradiction; reflexivity. Qed.

Lemma value_bytes_of_numeric p v :
  numeric p -> value_bytes_of p v = le_enc (prim_size p) (num_of v).
Proof. intros Hp. destruct p; try contradiction; reflexivity. Qed.

Lemma bound_wf_numeric p b :
  numeric p ->
  bound_wf p b = Nat.eqb (length b) (prim_size p) && negb (prim_is_nan p (le_dec b)).
Proof. intros Hp. destruct p; try contradiction; reflexivity. Qed.

Lemma prim_le_bytes_enc p a b :
  numeric p -> a < 2 ^ prim_bits p -> b < 2 ^ prim_bits p ->
  prim_le_bytes p (le_enc (prim_size p) a) (le_enc (prim_size p) b) = negb (prim_lt p b a).
Proof.
  intros Hp Ha Hb. rewrite (pow_bits_size p Hp) in Ha, Hb.
  rewrite prim_le_bytes_numeric, !le_dec_enc by assumption. reflexivity.
Qed.

Lemma bound_wf_enc p n :
  numeric p -> n < 2 ^ prim_bits p -> prim_is_nan p n = false ->
  bound_wf p (le_enc (prim_size p) n) = true.
Proof.
  intros Hp Hn Hnan. rewrite (pow_bits_size p Hp) in Hn.
  rewrite bound_wf_numeric, le_enc_length, Nat.eqb_refl, le_dec_enc, Hnan by assumption.
  reflexivity.
Qed.

Lemma bound_wf_sound p b :
  numeric p -> bound_wf p b = true ->
  length b = prim_size p /\ prim_is_nan p (le_dec b) = false.
Proof.
  intros Hp H. rewrite bound_wf_numeric in H by exact Hp.
  apply andb_prop in H. destruct H as [H1 H2].
  split; [apply Nat.eqb_eq; exact H1 | apply negb_true_iff; exact H2].
Qed.

Lemma num_stats_sound_core p required vals :
  numeric p -> Forall (leaf_ok p) vals -> (required = true -> vals <> []) ->
  bound_ok p vals (prim_le_bytes p)
    (if num_present p required vals
     then Some (le_enc (prim_size p) (ns_min (num_fold p vals))) else None) = true /\
  bound_ok p vals (fun mx x => prim_le_bytes p x mx)
    (if num_present p required vals
     then Some (le_enc (prim_size p) (ns_max (num_fold p vals))) else None) = true.
Proof.
  intros Hp Hvals Hreq. rewrite num_present_eq.
  destruct (required || negb (Nat.eqb (length vals) 0)) eqn:Hpres; [|split; reflexivity].
  assert (Hne : vals <> []).
  { destruct required; [apply Hreq; reflexivity | intros ->; discriminate Hpres]. }
  pose proof (leaf_ok_nums p vals Hp Hvals) as Hnums.
  destruct (num_stats_new_ok p) as [[N1 R1] [N2 R2]].
  unfold num_fold. rewrite num_fold_eq. cbn [ns_min ns_max num_stats_new].
  destruct (least_spec _ _ (map num_of vals) (prim_order p) _ N1) as (G1 & _ & B1).
  destruct (least_spec _ _ (map num_of vals) (bool_order_conv _ _ (prim_order p)) _ N2)
    as (G2 & _ & B2).
  pose proof (least_ind (prim_lt p) (fun v => v < 2 ^ prim_bits p) _ _ R1 Hnums) as L1.
  pose proof (least_ind (fun a b => prim_lt p b a) (fun v => v < 2 ^ prim_bits p) _ _ R2 Hnums) as L2.
  rewrite Forall_forall in Hnums. cbv beta in B2.
  split; (apply bound_ok_intro; [exact Hne | apply bound_wf_enc; assumption |]);
    intros v Hin Hnan; pose proof (in_map num_of _ _ Hin) as Hin';
    rewrite value_bytes_of_numeric, prim_le_bytes_enc by auto.
  - rewrite (B1 _ Hin' Hnan). reflexivity.
  - rewrite (B2 _ Hin' Hnan). reflexivity.
Qed.

(** ** String accumulator *)

Lemma str_fold_seen vs : forall s, ss_seen s = true ->
  fold_left str_stats_add vs s =
  {| ss_min := least bytes_lt (ss_min s) vs;
     ss_max := least (fun a b => bytes_lt b a) (ss_max s) vs;
     ss_seen := true; ss_nils := ss_nils s |}.
Proof.
  induction vs as [|v vs IH]; intros s Hs.
  - destruct s as [mn mx b k]. cbn [ss_seen] in Hs. subst b. reflexivity.
  - cbn [fold_left]. rewrite IH; unfold str_stats_add; rewrite Hs; reflexivity.
Qed.

Lemma str_fold_eq vals :
  str_fold vals =
  match map str_of vals with
  | [] => str_stats_new
  | b :: bs => {| ss_min := least bytes_lt b bs; ss_max := least (fun a b => bytes_lt b a) b bs;
                  ss_seen := true; ss_nils := 0 |}
  end.
Proof.
  unfold str_fold. destruct (map str_of vals) as [|b bs]; [reflexivity|].
  exact (str_fold_seen bs (str_stats_add str_stats_new b) eq_refl).
Qed.

Lemma str_fold_ind (P : bytes -> Prop) vals :
  P [] -> Forall (fun v => P (str_of v)) vals ->
  P (ss_min (str_fold vals)) /\ P (ss_max (str_fold vals)).
Proof.
  intros H0 Hvals. apply (Forall_map str_of P) in Hvals. rewrite str_fold_eq.
  destruct Hvals as [|b bs Hb Hbs]; [split; exact H0|].
  cbn [ss_min ss_max]. split; apply (least_ind _ P); assumption.
Qed.

Lemma str_stats_sound_core vals :
  bound_ok PString vals (prim_le_bytes PString)
    (if ss_seen (str_fold vals) then Some (ss_min (str_fold vals)) else None) = true /\
  bound_ok PString vals (fun mx x => prim_le_bytes PString x mx)
    (if ss_seen (str_fold vals) then Some (ss_max (str_fold vals)) else None) = true.
Proof.
  rewrite str_fold_eq. destruct (map str_of vals) as [|b bs] eqn:E; [split; reflexivity|].
  cbn [ss_seen ss_min ss_max].
  assert (Hne : vals <> []) by (intros ->; discriminate E).
  destruct (least_spec _ _ bs bytes_order b I) as (_ & L1 & B1).
  destruct (least_spec _ _ bs (bool_order_conv _ _ bytes_order) b I) as (_ & L2 & B2).
  split; (apply bound_ok_intro; [exact Hne | reflexivity |]); intros v Hin _;
    cbn [prim_le_bytes value_bytes_of]; apply negb_true_iff;
    pose proof (in_map str_of _ _ Hin) as Hin'; rewrite E in Hin';
    destruct Hin' as [<-|Hin']; auto.
Qed.

(** ** C12: the statistics of a page are sound *)

Theorem page_stats_sound p required maxdef entries :
  entries_ok p required maxdef entries ->
  stats_sound p maxdef entries (page_stats p required maxdef entries) = true.
Proof.
  intros Hok. rewrite stats_sound_eq.
  assert (Hnull :
    match st_null_count (page_stats p required maxdef entries) with
    | Some n => Z.eqb n (Z.of_N (pnils maxdef entries))
    | None => true end = true).
  { rewrite page_stats_null_count. destruct required; [reflexivity | apply Z.eqb_refl]. }
  rewrite Hnull. cbn [andb].
  pose proof (pvals_ok p maxdef entries (proj1 Hok)) as Hvals.
  assert (Hreq : required = true -> pvals maxdef entries <> [])
    by (intros ->; exact (pvals_required_nonempty p _ _ Hok)).
  destruct (prim_cases p) as [Hp|[->| ->]].
  - rewrite page_stats_numeric by exact Hp. cbv zeta. cbn [st_min_value st_max_value].
    destruct (num_stats_sound_core p required _ Hp Hvals Hreq) as [-> ->]. reflexivity.
  - rewrite page_stats_string. cbv zeta. cbn [st_min_value st_max_value].
    destruct (str_stats_sound_core (pvals maxdef entries)) as [-> ->]. reflexivity.
  - rewrite page_stats_bool. reflexivity.
Qed.

Lemma page_stats_absent p maxdef entries :
  pvals maxdef entries = [] ->
  st_min_value (page_stats p false maxdef entries) = None /\
  st_max_value (page_stats p false maxdef entries) = None.
Proof.
  intros Hv.
  destruct (prim_cases p) as [Hp|[->| ->]];
    [rewrite page_stats_numeric by exact Hp | rewrite page_stats_string | rewrite page_stats_bool];
    cbv zeta; rewrite ?Hv; split; reflexivity.
Qed.

Lemma page_stats_absent_nulls p maxdef entries :
  Forall (fun e => e_val e = None) entries ->
  st_min_value (page_stats p false maxdef entries) = None /\
  st_max_value (page_stats p false maxdef entries) = None.
Proof. intros H. apply page_stats_absent. apply pvals_no_value. exact H. Qed.

Lemma page_stats_present p required maxdef entries :
  p <> PBool -> pvals maxdef entries <> [] ->
  st_min_value (page_stats p required maxdef entries) <> None /\
  st_max_value (page_stats p required maxdef entries) <> None.
Proof.
  intros Hb Hne. destruct (prim_cases p) as [Hp|[->| ->]]; [| |congruence].
  - rewrite page_stats_numeric by exact Hp. cbv zeta. cbn [st_min_value st_max_value].
    rewrite num_present_eq, (length_nonzero _ Hne), orb_true_r. split; discriminate.
  - rewrite page_stats_string. cbv zeta. cbn [st_min_value st_max_value].
    rewrite str_fold_eq. destruct (pvals maxdef entries) as [|v vs]; [congruence|].
    split; discriminate.
Qed.

Definition ev (d : N) (v : value) : entry := {| e_rep := 0; e_def := d; e_val := Some v |}.
Definition en (d : N) : entry := {| e_rep := 0; e_def := d; e_val := None |}.

(** The hypothesis "a written page holds a record" is necessary: the required
    numeric accumulator always reports min/max. *)
Example page_stats_empty_required_refuted :
  stats_sound PInt32 0 [] (page_stats PInt32 true 0 []) = false.
Proof. vm_compute. reflexivity. Qed.

(** The pre-fix string accumulator: the page ["__#NIL#__"; "zzz"] gets
    min = "zzz" although "__#NIL#__" < "zzz". *)
Example C12_string_refuted_old :
  let '(mn, mx) := fold_left (fun '(a, b) v => str_stats_add_old a b v)
                             [nil_sentinel; [122; 122; 122]] (nil_sentinel, nil_sentinel) in
  bytes_lt nil_sentinel mn = true.
Proof. vm_compute. reflexivity. Qed.

(** all-negative int32 page: -5, -100, -1 (max stays at its initial 0: a bound, not tight) *)
Definition ex_neg : list entry :=
  [ev 0 (VNum 4294967291); ev 0 (VNum 4294967196); ev 0 (VNum 4294967295)].
Example ex_neg_ok : entries_okb PInt32 true 0 ex_neg = true.
Proof. vm_compute. reflexivity. Qed.
Example ex_neg_stats :
  (st_min_value (page_stats PInt32 true 0 ex_neg), st_max_value (page_stats PInt32 true 0 ex_neg))
  = (Some [156; 255; 255; 255], Some [0; 0; 0; 0]).
Proof. vm_compute. reflexivity. Qed.
Example ex_neg_sound : stats_sound PInt32 0 ex_neg (page_stats PInt32 true 0 ex_neg) = true.
Proof. apply page_stats_sound, entries_okb_sound, ex_neg_ok. Qed.

(** float32 page: NaN, -0, null, +Inf, 1.0, -2.0 *)
Definition ex_flt : list entry :=
  [ev 1 (VNum 2143289344); ev 1 (VNum 2147483648); en 0; ev 1 (VNum 2139095040);
   ev 1 (VNum 1065353216); ev 1 (VNum 3221225472)].
Example ex_flt_ok : entries_okb PFloat32 false 1 ex_flt = true.
Proof. vm_compute. reflexivity. Qed.
Example ex_flt_stats :
  (st_null_count (page_stats PFloat32 false 1 ex_flt),
   st_min_value (page_stats PFloat32 false 1 ex_flt),
   st_max_value (page_stats PFloat32 false 1 ex_flt))
  = (Some 1%Z, Some [0; 0; 0; 192], Some [0; 0; 128; 127]).
Proof. vm_compute. reflexivity. Qed.
Example ex_flt_sound : stats_sound PFloat32 1 ex_flt (page_stats PFloat32 false 1 ex_flt) = true.
Proof. apply page_stats_sound, entries_okb_sound, ex_flt_ok. Qed.

(** float32 page NaN, 1.5, -2.5: statistics
    min = max = NaN (0x7FC00000, little endian) bound nothing - every comparison
    against them is false - and are judged unsound; the statistics the templates
    write for the same page (the accumulator never takes a NaN) are sound. *)
Definition ex_nan : list entry :=
  [ev 0 (VNum 2143289344); ev 0 (VNum 1069547520); ev 0 (VNum 3223322624)].
Definition ex_nan_stats_bad : statistics :=
  {| st_max := None; st_min := None; st_null_count := None; st_distinct_count := None;
     st_max_value := Some [0; 0; 192; 127]; st_min_value := Some [0; 0; 192; 127] |}.
Example ex_nan_ok : entries_okb PFloat32 true 0 ex_nan = true.
Proof. vm_compute. reflexivity. Qed.
Example ex_nan_bounds_unsound : stats_sound PFloat32 0 ex_nan ex_nan_stats_bad = false.
Proof. vm_compute. reflexivity. Qed.
Example ex_nan_page_stats :
  (st_min_value (page_stats PFloat32 true 0 ex_nan), st_max_value (page_stats PFloat32 true 0 ex_nan))
  = (Some [0; 0; 32; 192], Some [0; 0; 192; 63]).
Proof. vm_compute. reflexivity. Qed.
Example ex_nan_page_stats_sound :
  stats_sound PFloat32 0 ex_nan (page_stats PFloat32 true 0 ex_nan) = true.
Proof. apply page_stats_sound, entries_okb_sound, ex_nan_ok. Qed.

(** string page: "\xc8\x01", "", "\x80", "ab" *)
Definition ex_str : list entry :=
  [ev 0 (VStr [200; 1]); ev 0 (VStr []); ev 0 (VStr [128]); ev 0 (VStr [97; 98])].
Example ex_str_ok : entries_okb PString true 0 ex_str = true.
Proof. vm_compute. reflexivity. Qed.
Example ex_str_stats :
  (st_min_value (page_stats PString true 0 ex_str), st_max_value (page_stats PString true 0 ex_str))
  = (Some [], Some [200; 1]).
Proof. vm_compute. reflexivity. Qed.
Example ex_str_sound : stats_sound PString 0 ex_str (page_stats PString true 0 ex_str) = true.
Proof. apply page_stats_sound, entries_okb_sound, ex_str_ok. Qed.

Definition ex_nulls : list entry := [en 0; en 1; en 0].
Example ex_nulls_ok : entries_okb PInt64 false 2 ex_nulls = true.
Proof. vm_compute. reflexivity. Qed.
Example ex_nulls_stats :
  page_stats PInt64 false 2 ex_nulls =
  {| st_max := None; st_min := None; st_null_count := Some 3%Z; st_distinct_count := None;
     st_max_value := None; st_min_value := None |}.
Proof. vm_compute. reflexivity. Qed.
Example ex_nulls_sound : stats_sound PInt64 2 ex_nulls (page_stats PInt64 false 2 ex_nulls) = true.
Proof. apply page_stats_sound, entries_okb_sound, ex_nulls_ok. Qed.
Example ex_nulls_str_sound :
  stats_sound PString 2 ex_nulls (page_stats PString false 2 ex_nulls) = true.
Proof. vm_compute. reflexivity. Qed.

Print Assumptions page_stats_sound.
Print Assumptions page_stats_null_count.
Print Assumptions page_stats_null_count_entries.
Print Assumptions page_stats_absent.
Print Assumptions page_stats_present.
Print Assumptions bytes_lt_trans.
Print Assumptions bytes_lt_total.
Print Assumptions prim_le_trans.
Print Assumptions prim_lt_total_int.
