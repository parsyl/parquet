(** * PoolProofs: stale pool contents never reach an output; interleaving
    independent instances gives each its solo outputs (C13, the part a
    sequential model can carry). *)
From Coq Require Import List NArith ZArith Lia Bool Arith.
From PQ Require Import Bytes MetaTypes Pool.
Import ListNotations.

Lemma pb_append_data b x : pb_data (pb_append b x) = pb_data b ++ x.
Proof. reflexivity. Qed.

Lemma fold_append_data pieces b :
  pb_data (fold_left pb_append pieces b) = pb_data b ++ concat pieces.
Proof.
  revert b; induction pieces as [|x r IH]; intros b; cbn [fold_left concat].
  - rewrite app_nil_r. reflexivity.
  - rewrite IH, pb_append_data, app_assoc. reflexivity.
Qed.

Section WithCodecs.
Variable snappy_encode : bytes -> bytes -> bytes.
Variable snappy_maxlen : nat -> nat.
Variable gzip_encode : bytes -> bytes.
(** library contract: the encoder's result does not depend on what dst holds *)
Hypothesis snappy_dst_irrelevant : forall d1 d2 src, length d1 = length d2 -> snappy_encode d1 src = snappy_encode d2 src.

Lemma pb_reslice_length b v : length (pb_reslice b v) = v.
Proof.
  unfold pb_reslice. destruct (Nat.leb v (length (pb_data b ++ pb_stale b))) eqn:E.
  - apply Nat.leb_le in E. rewrite firstn_length. lia.
  - apply repeat_length.
Qed.

Theorem compress_pool_indep codec stale1 stale2 vals :
  compress_pooled snappy_encode snappy_maxlen gzip_encode codec (pool_get stale1) vals =
  compress_pooled snappy_encode snappy_maxlen gzip_encode codec (pool_get stale2) vals.
Proof.
  unfold compress_pooled.
  destruct (Z.eqb codec CODEC_SNAPPY).
  - apply snappy_dst_irrelevant. rewrite !pb_reslice_length. reflexivity.
  - destruct (Z.eqb codec CODEC_GZIP); reflexivity.
Qed.

Theorem pool_indep codec a1 a2 b1 b2 pieces :
  page_body_pooled snappy_encode snappy_maxlen gzip_encode codec a1 a2 pieces =
  page_body_pooled snappy_encode snappy_maxlen gzip_encode codec b1 b2 pieces.
Proof.
  unfold page_body_pooled. rewrite !fold_append_data. cbn [pool_get pb_data app].
  apply compress_pool_indep.
Qed.
End WithCodecs.

Section Interleave.
Variables (St Call Out : Type).
Variable step : list bytes -> St -> Call -> St * Out * list bytes.
(** the pool is scratch only: next state and output do not depend on it *)
Hypothesis step_pool_scratch : forall p1 p2 s c,
  fst (step p1 s c) = fst (step p2 s c).

Lemma run_solo_pool p1 p2 s calls :
  run_solo St Call Out step p1 s calls = run_solo St Call Out step p2 s calls.
Proof.
  revert p1 p2 s; induction calls as [|c r IH]; intros p1 p2 s; cbn [run_solo]; [reflexivity|].
  pose proof (step_pool_scratch p1 p2 s c) as H.
  destruct (step p1 s c) as [[s1 o1] q1]. destruct (step p2 s c) as [[s2 o2] q2].
  cbn [fst] in H. injection H as <- <-. f_equal. apply IH.
Qed.

Lemma outs_of_cons {A} i j (o : A) l :
  outs_of i ((j, o) :: l) = if Nat.eqb j i then o :: outs_of i l else outs_of i l.
Proof. unfold outs_of. cbn [filter fst]. destruct (Nat.eqb j i); reflexivity. Qed.

Lemma calls_of_cons i j (c : Call) l :
  calls_of Call i ((j, c) :: l) = if Nat.eqb j i then c :: calls_of Call i l else calls_of Call i l.
Proof. apply outs_of_cons. Qed.

(** C13 ([C13_interleave_indep]). *)
Theorem interleave_indep sched : forall pool pool' sts i,
  outs_of i (run_sched St Call Out step pool sts sched) =
  run_solo St Call Out step pool' (sts i) (calls_of Call i sched).
Proof.
  induction sched as [|[j c] rest IH]; intros pool pool' sts i; [reflexivity|].
  cbn [run_sched]. destruct (step pool (sts j) c) as [[s' o] q] eqn:E.
  rewrite outs_of_cons, calls_of_cons.
  destruct (Nat.eqb_spec j i) as [->|Hji].
  - cbn [run_solo].
    pose proof (step_pool_scratch pool pool' (sts i) c) as H. rewrite E in H.
    destruct (step pool' (sts i) c) as [[s2 o2] q2]. injection H as <- <-.
    rewrite (IH q q2), Nat.eqb_refl. reflexivity.
  - rewrite (IH q pool').
    destruct (Nat.eqb_spec i j) as [Hij|_]; [congruence | reflexivity].
Qed.
End Interleave.

Print Assumptions pool_indep.
Print Assumptions interleave_indep.
