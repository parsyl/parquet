(** * RleProofs: the encoder and decoder theorems composed (C07). *)
From Coq Require Import List NArith Lia Bool.
From Coq Require Import ZifyN ZifyNat ZifyBool.
From PQ Require Import Bytes Varint VarintProofs Bitpack BitpackProofs RleSpec RleSpecProofs Rle RleEncProofs RleDecProofs.
Import ListNotations.
Local Open Scope N_scope.

Lemma closed_ok_small w r : closed_ok w r -> run_small r.
Proof.
  destruct r as [c v|gs]; cbn [closed_ok run_small]; [|trivial].
  intros (_ & Hc & _). assert (2 ^ 31 < 2 ^ 63) by (apply N.pow_lt_mono_r; lia). lia.
Qed.

(** C07 ([C07_spec_decoder_inverts_encoder]); [pad] zeros fill the last
    bit-packed group. *)
Theorem spec_decodes_encoder w ls :
  In w widths -> Forall (fun v => v < 2 ^ w) ls -> N.of_nat (length ls) < 2 ^ 31 ->
  exists rs pad,
    hybrid_decode_framed w (rle_encode w ls) = Some (rs, []) /\
    Forall (wf_run w) rs /\
    runs_values rs = ls ++ repeat 0 pad /\ (pad < 8)%nat.
Proof.
  intros Hw Hv Hl.
  destruct (rle_encode_runs w ls Hw Hv Hl) as (rs & pad & Henc & Hok & Hvals & Hpad & Hlen).
  exists rs, pad.
  assert (Hwf : Forall (wf_run w) rs).
  { eapply Forall_impl; [|exact Hok]. intros r. apply closed_ok_wf. }
  repeat split; auto.
  rewrite Henc, <- (app_nil_r (hybrid_encode w rs)).
  apply hybrid_decode_framed_encode; auto.
  unfold nlen. change (2 ^ 32) with (2 * 2 ^ 31). lia.
Qed.

(** The library's decoder inverts the library's encoder.  The [+ 8]: the section
    has at most one byte per value, < 8 padding values included
    ([closed_runs_length]), and [rle_read] takes its length as an int32. *)
Theorem rle_roundtrip w ls rest :
  In w widths -> Forall (fun v => v < 2 ^ w) ls -> N.of_nat (length ls) + 8 <= 2 ^ 31 ->
  exists pad,
    rle_read w (rle_encode w ls ++ rest) = Ok (ls ++ repeat 0 pad, length (rle_encode w ls)) /\
    (pad < 8)%nat.
Proof.
  intros Hw Hv Hl.
  assert (Hl' : N.of_nat (length ls) < 2 ^ 31) by lia.
  destruct (rle_encode_runs w ls Hw Hv Hl') as (rs & pad & Henc & Hok & Hvals & Hpad & Hlen).
  exists pad. split; [|exact Hpad].
  rewrite Henc, rle_read_ok; auto.
  - rewrite Hvals. unfold hybrid_encode. rewrite app_length, le_enc_length. reflexivity.
  - eapply Forall_impl; [|exact Hok]. intros r. apply closed_ok_wf.
  - eapply Forall_impl; [|exact Hok]. intros r. apply closed_ok_small.
  - unfold nlen. lia.
Qed.
