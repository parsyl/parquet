(** * WriterProofs: the model of the generated ParquetWriter ([Writer.v]).

    - Failing sink (property C09): [run_fault].
    - Histories (property C06): the file is a function of the non-empty
       batches only; empty Writes are inert; records pending at Close are
       dropped; the footer has one row group per non-empty batch with the
       batch's row count.
    - Offsets (property C02): the footer's offsets and sizes are the positions
       and lengths found in the file. *)
From Coq Require Import List NArith ZArith Lia Bool Arith PeanoNat.
From Coq Require Import ZifyN ZifyNat ZifyBool.
From PQ Require Import Bytes Schema Dremel DremelProofs MetaTypes Meta Writer.
Import ListNotations.
Local Open Scope nat_scope.

Lemma let_pair {A B C} (p : A * B) (k : A -> B -> C) :
  (let '(a, b) := p in k a b) = k (fst p) (snd p).
Proof. destruct p. reflexivity. Qed.

(** ** Failing sink *)

Lemma run_fault_cons_none ws rest :
  run_fault (ws :: rest) None =
  (false :: fst (run_fault rest None), ws ++ snd (run_fault rest None)).
Proof. cbn [run_fault]. rewrite let_pair. reflexivity. Qed.

Lemma run_fault_cons_lt ws rest j :
  j < length ws -> run_fault (ws :: rest) (Some j) = ([true], firstn j ws).
Proof. intros Hj. cbn [run_fault]. apply Nat.ltb_lt in Hj. rewrite Hj. reflexivity. Qed.

Lemma run_fault_cons_ge ws rest j :
  length ws <= j ->
  run_fault (ws :: rest) (Some j) =
  (false :: fst (run_fault rest (Some (j - length ws))),
   ws ++ snd (run_fault rest (Some (j - length ws)))).
Proof.
  intros Hj. cbn [run_fault]. apply Nat.ltb_ge in Hj. rewrite Hj, let_pair. reflexivity.
Qed.

Theorem run_fault_none calls :
  run_fault calls None = (map (fun _ => false) calls, concat calls).
Proof.
  induction calls as [|ws rest IH]; [reflexivity|].
  rewrite run_fault_cons_none, IH. reflexivity.
Qed.

(** C09.  The sink fails write [k] of the run: exactly one call reports an
    error, the one during which that write happens; the run stops there and the
    sink holds the first [k] writes of the fault-free run. *)
Theorem run_fault_hit calls k :
  k < length (concat calls) ->
  exists i, i < length calls /\
    fst (run_fault calls (Some k)) = repeat false i ++ [true] /\
    (length (concat (firstn i calls)) <= k < length (concat (firstn (S i) calls))) /\
    snd (run_fault calls (Some k)) = firstn k (concat calls).
Proof.
  revert k. induction calls as [|ws rest IH]; intros k Hk.
  - cbn [concat length] in Hk. lia.
  - cbn [concat] in Hk. rewrite app_length in Hk.
    destruct (Nat.lt_ge_cases k (length ws)) as [Hlt|Hge].
    + exists 0. rewrite run_fault_cons_lt by exact Hlt.
      cbn [fst snd repeat app firstn concat length].
      rewrite app_nil_r.
      split; [lia|]. split; [reflexivity|]. split; [lia|].
      rewrite firstn_app. replace (k - length ws) with 0 by lia.
      rewrite firstn_O, app_nil_r. reflexivity.
    + destruct (IH (k - length ws)) as (i & Hi & Hf & Hr & Hs); [lia|].
      exists (S i). rewrite run_fault_cons_ge by exact Hge.
      cbn [fst snd]. rewrite Hf, Hs.
      split; [cbn [length]; lia|]. split; [reflexivity|]. split.
      * change (firstn (S i) (ws :: rest)) with (ws :: firstn i rest).
        change (firstn (S (S i)) (ws :: rest)) with (ws :: firstn (S i) rest).
        cbn [concat]. rewrite !app_length. lia.
      * cbn [concat]. rewrite firstn_app.
        rewrite (firstn_all2 ws) by lia. reflexivity.
Qed.

Theorem run_fault_beyond calls k :
  length (concat calls) <= k -> run_fault calls (Some k) = run_fault calls None.
Proof.
  revert k. induction calls as [|ws rest IH]; intros k Hk; [reflexivity|].
  cbn [concat] in Hk. rewrite app_length in Hk.
  rewrite run_fault_cons_ge by lia. rewrite run_fault_cons_none.
  rewrite IH by lia. reflexivity.
Qed.

Corollary run_fault_hit_last calls k :
  k < length (concat calls) ->
  exists i, fst (run_fault calls (Some k)) = repeat false i ++ [true] /\
            length (fst (run_fault calls (Some k))) = S i /\ i < length calls.
Proof.
  intros Hk. destruct (run_fault_hit calls k Hk) as (i & Hi & Hf & _ & _).
  exists i. rewrite Hf. rewrite app_length, repeat_length. cbn [length].
  split; [reflexivity|]. split; [lia|exact Hi].
Qed.

Corollary sink_fault_reported compress cfg h k :
  k < length (concat (run_history compress cfg h)) ->
  In true (fst (run_fault (run_history compress cfg h) (Some k))).
Proof.
  intros Hk. destruct (run_fault_hit _ k Hk) as (i & _ & Hf & _ & _).
  rewrite Hf. apply in_or_app. right. left. reflexivity.
Qed.

(** ** Histories *)

Definition nonempty (b : list value) : bool := negb (Nat.eqb (length b) 0).

Lemma nonempty_batches_eq h : nonempty_batches h = filter nonempty (batches_of h []).
Proof. reflexivity. Qed.

Lemma concat_concat_map {A B} (f : A -> list (list B)) (l : list A) :
  concat (concat (map f l)) = concat (map (fun x => concat (f x)) l).
Proof.
  induction l as [|x l IH]; [reflexivity|].
  cbn [map concat]. rewrite concat_app, IH. reflexivity.
Qed.

Lemma concat_map_nth {A B} (f : A -> list B) l i x :
  nth_error l i = Some x ->
  concat (map f l) = concat (map f (firstn i l)) ++ f x ++ concat (map f (skipn (S i) l)).
Proof.
  revert i. induction l as [|y l IH]; intros [|i] Hi; try discriminate Hi; cbn [nth_error] in Hi.
  - injection Hi as ->. reflexivity.
  - cbn [map concat firstn skipn]. rewrite (IH i Hi), app_assoc. reflexivity.
Qed.

Section Histories.
Variable compress : Z -> bytes -> bytes.
Variable cfg : config.

Lemma run_ops_add r h pending rgs :
  run_ops compress cfg (OpAdd r :: h) pending rgs =
  ([] :: fst (run_ops compress cfg h (pending ++ [r]) rgs),
   snd (run_ops compress cfg h (pending ++ [r]) rgs)).
Proof. cbn [run_ops]. rewrite let_pair. reflexivity. Qed.

Lemma run_ops_write_nil h rgs :
  run_ops compress cfg (OpWrite :: h) [] rgs =
  ([] :: fst (run_ops compress cfg h [] rgs), snd (run_ops compress cfg h [] rgs)).
Proof. cbn [run_ops]. rewrite let_pair. reflexivity. Qed.

Lemma run_ops_write_cons h x p rgs :
  run_ops compress cfg (OpWrite :: h) (x :: p) rgs =
  (fst (write_batch compress cfg (x :: p))
     :: fst (run_ops compress cfg h [] (rgs ++ [snd (write_batch compress cfg (x :: p))])),
   snd (run_ops compress cfg h [] (rgs ++ [snd (write_batch compress cfg (x :: p))]))).
Proof. cbn [run_ops]. rewrite !let_pair. reflexivity. Qed.

Lemma run_ops_spec h : forall pending rgs,
  snd (run_ops compress cfg h pending rgs) =
    rgs ++ map (fun b => snd (write_batch compress cfg b)) (filter nonempty (batches_of h pending)) /\
  concat (fst (run_ops compress cfg h pending rgs)) =
    concat (map (fun b => fst (write_batch compress cfg b)) (filter nonempty (batches_of h pending))) /\
  length (fst (run_ops compress cfg h pending rgs)) = length h.
Proof.
  induction h as [|o h' IH]; intros pending rgs.
  - cbn [run_ops batches_of filter map fst snd concat length]. rewrite app_nil_r. auto.
  - destruct o as [r|]; [|destruct pending as [|x p]].
    + rewrite run_ops_add. cbn [fst snd batches_of concat length app].
      destruct (IH (pending ++ [r]) rgs) as (H1 & H2 & H3). rewrite H1, H2, H3. auto.
    + rewrite run_ops_write_nil. cbn [fst snd batches_of concat length app].
      change (filter nonempty ([] :: ?l)) with (filter nonempty l).
      destruct (IH [] rgs) as (H1 & H2 & H3). rewrite H1, H2, H3. auto.
    + rewrite run_ops_write_cons. cbn [fst snd batches_of concat length].
      change (filter nonempty ((x :: p) :: ?l)) with ((x :: p) :: filter nonempty l). cbn [map concat].
      destruct (IH [] (rgs ++ [snd (write_batch compress cfg (x :: p))])) as (H1 & H2 & H3).
      rewrite H1, H2, H3, <- app_assoc. auto.
Qed.

Lemma run_ops_snd h pending rgs :
  snd (run_ops compress cfg h pending rgs) =
  rgs ++ map (fun b => snd (write_batch compress cfg b)) (filter nonempty (batches_of h pending)).
Proof. apply run_ops_spec. Qed.

(** one entry per API call: NewParquetWriter, each op, Close *)
Lemma run_history_length h : length (run_history compress cfg h) = S (S (length h)).
Proof.
  unfold run_history. destruct (run_ops_spec h [] []) as (_ & _ & Hl).
  destruct (run_ops compress cfg h [] []) as [ws rgs]. cbn [fst] in Hl.
  cbn [length]. rewrite app_length. cbn [length]. lia.
Qed.

(** C06: the file depends on the history only through its non-empty batches. *)
Theorem file_bytes_batches h :
  file_bytes compress cfg h = file_of_batches compress cfg (nonempty_batches h).
Proof.
  unfold file_bytes, run_history, file_of_batches. rewrite nonempty_batches_eq.
  destruct (run_ops_spec h [] []) as (H1 & H2 & _).
  destruct (run_ops compress cfg h [] []) as [ws rgs]. cbn [fst snd app] in H1, H2.
  subst rgs. rewrite !map_map.
  cbn [concat]. rewrite !concat_app. cbn [concat]. rewrite !app_nil_r.
  rewrite H2, (concat_concat_map (fun b => fst (write_batch compress cfg b))). reflexivity.
Qed.

Lemma batches_of_app_write h1 h2 : forall p,
  batches_of (h1 ++ OpWrite :: h2) p = batches_of (h1 ++ [OpWrite]) p ++ batches_of h2 [].
Proof.
  induction h1 as [|[r|] h1 IH]; intros p; cbn [app batches_of]; [reflexivity|apply IH|].
  rewrite IH. reflexivity.
Qed.

Lemma nonempty_batches_double_write h1 h2 :
  nonempty_batches (h1 ++ OpWrite :: OpWrite :: h2) = nonempty_batches (h1 ++ OpWrite :: h2).
Proof.
  rewrite !nonempty_batches_eq, (batches_of_app_write h1 (OpWrite :: h2)), (batches_of_app_write h1 h2).
  rewrite !filter_app. reflexivity.
Qed.

Theorem empty_write_inert h1 h2 :
  file_bytes compress cfg (h1 ++ OpWrite :: OpWrite :: h2) =
  file_bytes compress cfg (h1 ++ OpWrite :: h2).
Proof. rewrite !file_bytes_batches, nonempty_batches_double_write. reflexivity. Qed.

Theorem leading_write_inert h :
  file_bytes compress cfg (OpWrite :: h) = file_bytes compress cfg h.
Proof. rewrite !file_bytes_batches. reflexivity. Qed.

(** Records added after the last Write are dropped at Close. *)
Lemma batches_of_trailing_adds h rs : forall p,
  batches_of (h ++ map OpAdd rs) p = batches_of h p.
Proof.
  induction h as [|o h' IH]; intros p.
  - cbn [app batches_of]. revert p. induction rs as [|r rs' IHr]; intros p; [reflexivity|].
    cbn [map batches_of]. apply IHr.
  - destruct o as [r|]; cbn [app batches_of].
    + apply IH.
    + f_equal. apply IH.
Qed.

Theorem pending_at_close_dropped h rs :
  file_bytes compress cfg (h ++ map OpAdd rs) = file_bytes compress cfg h.
Proof.
  rewrite !file_bytes_batches. unfold nonempty_batches.
  rewrite batches_of_trailing_adds. reflexivity.
Qed.

Corollary pending_at_close_dropped_after_write h rs :
  file_bytes compress cfg ((h ++ [OpWrite]) ++ map OpAdd rs) = file_bytes compress cfg (h ++ [OpWrite]).
Proof. apply pending_at_close_dropped. Qed.

Corollary only_adds_empty_file rs :
  file_bytes compress cfg (map OpAdd rs) = file_bytes compress cfg [].
Proof. apply (pending_at_close_dropped [] rs). Qed.

End Histories.

Local Open Scope N_scope.

Lemma chunks_meta_cons codec pos ca r :
  chunks_meta codec pos (ca :: r) =
  (chunk_meta codec pos ca :: fst (chunks_meta codec (pos + ca_compressed ca) r),
   snd (chunks_meta codec (pos + ca_compressed ca) r)).
Proof. cbn [chunks_meta]. rewrite let_pair. reflexivity. Qed.

Lemma chunks_meta_snd codec cas : forall pos,
  snd (chunks_meta codec pos cas) = pos + sumN (map ca_compressed cas).
Proof.
  induction cas as [|ca r IH]; intros pos.
  - cbn [chunks_meta snd map sumN]. lia.
  - rewrite chunks_meta_cons. cbn [snd map sumN]. rewrite IH. lia.
Qed.

Lemma chunks_meta_length codec cas : forall pos,
  length (fst (chunks_meta codec pos cas)) = length cas.
Proof.
  induction cas as [|ca r IH]; intros pos; [reflexivity|].
  rewrite chunks_meta_cons. cbn [fst length]. rewrite IH. reflexivity.
Qed.

Lemma chunks_meta_nth codec cas : forall pos j ca,
  nth_error cas j = Some ca ->
  nth_error (fst (chunks_meta codec pos cas)) j =
  Some (chunk_meta codec (pos + sumN (map ca_compressed (firstn j cas))) ca).
Proof.
  induction cas as [|ca0 r IH]; intros pos [|j] ca Hj; try discriminate Hj;
    rewrite chunks_meta_cons; cbn [fst nth_error firstn map sumN] in *.
  - injection Hj as ->. rewrite N.add_0_r. reflexivity.
  - rewrite (IH _ _ _ Hj), N.add_assoc. reflexivity.
Qed.

Definition rg_bytes (rg : rg_acc) : N := sumN (map ca_compressed (ra_chunks rg)).

Lemma row_groups_meta_cons codec pos rg r :
  row_groups_meta codec pos (rg :: r) =
  {| rg_columns := fst (chunks_meta codec pos (ra_chunks rg));
     rg_total_byte_size := Z.of_N (rg_bytes rg);
     rg_num_rows := Z.of_N (ra_rows rg) |} :: row_groups_meta codec (pos + rg_bytes rg) r.
Proof. cbn [row_groups_meta]. rewrite let_pair, chunks_meta_snd. reflexivity. Qed.

Lemma row_groups_meta_length codec rgs : forall pos,
  length (row_groups_meta codec pos rgs) = length rgs.
Proof.
  induction rgs as [|rg r IH]; intros pos; [reflexivity|].
  rewrite row_groups_meta_cons. cbn [length]. rewrite IH. reflexivity.
Qed.

Lemma row_groups_meta_rows codec rgs : forall pos,
  map rg_num_rows (row_groups_meta codec pos rgs) = map (fun rg => Z.of_N (ra_rows rg)) rgs.
Proof.
  induction rgs as [|rg r IH]; intros pos; [reflexivity|].
  rewrite row_groups_meta_cons. cbn [map rg_num_rows]. rewrite IH. reflexivity.
Qed.

Lemma row_groups_meta_nth codec rgs : forall pos i rg,
  nth_error rgs i = Some rg ->
  nth_error (row_groups_meta codec pos rgs) i =
  Some {| rg_columns := fst (chunks_meta codec (pos + sumN (map rg_bytes (firstn i rgs))) (ra_chunks rg));
          rg_total_byte_size := Z.of_N (rg_bytes rg);
          rg_num_rows := Z.of_N (ra_rows rg) |}.
Proof.
  induction rgs as [|rg0 r IH]; intros pos [|i] rg Hi; try discriminate Hi;
    rewrite row_groups_meta_cons; cbn [nth_error firstn map sumN] in *.
  - injection Hi as ->. rewrite N.add_0_r. reflexivity.
  - rewrite (IH _ _ _ Hi), N.add_assoc. reflexivity.
Qed.

Local Close Scope N_scope.

Lemma index_from_nth_eq {A} (l : list A) : forall s j,
  nth_error (index_from s l) j = option_map (pair (s + j)) (nth_error l j).
Proof.
  induction l as [|y l IH]; intros s [|j]; cbn [index_from nth_error option_map]; try reflexivity.
  - rewrite Nat.add_0_r. reflexivity.
  - rewrite IH, Nat.add_succ_comm. reflexivity.
Qed.

Lemma index_from_nth {A} (l : list A) s j x :
  nth_error l j = Some x -> nth_error (index_from s l) j = Some (s + j, x).
Proof. intros Hj. rewrite index_from_nth_eq, Hj. reflexivity. Qed.

Lemma index_from_In {A} (l : list A) s i x :
  In (i, x) (index_from s l) -> s <= i /\ nth_error l (i - s) = Some x.
Proof.
  intros Hin. apply In_nth_error in Hin. destruct Hin as [j Hj]. rewrite index_from_nth_eq in Hj.
  destruct (nth_error l j) as [y|] eqn:E; [|discriminate Hj]. injection Hj as <- <-.
  rewrite Nat.add_comm, Nat.add_sub. split; [lia|exact E].
Qed.

Lemma index_from_fst {A} (l : list A) : forall s, map fst (index_from s l) = seq s (length l).
Proof. induction l as [|y l IH]; intros s; cbn [index_from map length seq]; [reflexivity|]. rewrite IH. reflexivity. Qed.

Lemma index_from_snd {A} (l : list A) : forall s, map snd (index_from s l) = l.
Proof. induction l as [|y l IH]; intros s; cbn [index_from map]; [reflexivity|]. rewrite IH. reflexivity. Qed.

Lemma index_from_length {A} (l : list A) s : length (index_from s l) = length l.
Proof. rewrite <- (map_length snd), index_from_snd. reflexivity. Qed.

Lemma index_from_app {A} (a b : list A) : forall k,
  index_from k (a ++ b) = index_from k a ++ index_from (k + length a) b.
Proof.
  induction a as [|x a IH]; intros k; cbn [app index_from length].
  - rewrite Nat.add_0_r. reflexivity.
  - rewrite IH. replace (S k + length a)%nat with (k + S (length a))%nat by lia. reflexivity.
Qed.

Lemma map_index_from_range {A B} (F : A -> B) (G : nat * A -> B) (l : list A) : forall k,
  (forall q x, (k <= q < k + length l)%nat -> G (q, x) = F x) -> map G (index_from k l) = map F l.
Proof.
  induction l as [|x l IH]; intros k HG; [reflexivity|].
  cbn [index_from map length] in *. rewrite HG by lia. rewrite (IH (S k)); [reflexivity|].
  intros q y Hq. apply HG. lia.
Qed.

Lemma chunk_fuel_spec {A} (n : nat) : (1 <= n)%nat -> forall fuel (l : list A),
  (length l <= fuel)%nat ->
  concat (chunk_fuel fuel n l) = l /\
  Forall (fun b => b <> [] /\ (length b <= n)%nat) (chunk_fuel fuel n l).
Proof.
  intros Hn. induction fuel as [|f IH]; intros l Hl.
  - destruct l; [|cbn [length] in Hl; lia]. split; [reflexivity|constructor].
  - cbn [chunk_fuel]. destruct l as [|x l']; [split; [reflexivity|constructor]|].
    destruct (IH (skipn n (x :: l'))) as [IH1 IH2].
    { rewrite skipn_length. cbn [length] in *. lia. }
    split; [cbn [concat]; rewrite IH1; apply firstn_skipn|].
    constructor; [|exact IH2]. split; [|rewrite firstn_length; lia].
    destruct n as [|n']; [lia|]. cbn [firstn]. discriminate.
Qed.

Lemma chunk_spec {A} (n : nat) (l : list A) : (1 <= n)%nat ->
  concat (chunk n l) = l /\ Forall (fun b => b <> [] /\ (length b <= n)%nat) (chunk n l).
Proof. intros Hn. unfold chunk. apply chunk_fuel_spec; [exact Hn|lia]. Qed.

Lemma chunk_Forall {A} (P : A -> Prop) n (l : list A) :
  (1 <= n)%nat -> Forall P l -> Forall (Forall P) (chunk n l).
Proof. intros Hn H. apply Forall_concat. rewrite (proj1 (chunk_spec n l Hn)). exact H. Qed.

Lemma chunk_fuel_length {A} n : forall fuel (l : list A), (length (chunk_fuel fuel n l) <= fuel)%nat.
Proof.
  induction fuel as [|f IH]; intros l; [reflexivity|].
  destruct l as [|x l]; cbn [chunk_fuel length]; [lia|]. specialize (IH (skipn n (x :: l))). lia.
Qed.

Lemma column_entries_cons fs i r recs :
  column_entries fs i (r :: recs) = nth i (shred_record fs r) [] ++ column_entries fs i recs.
Proof. reflexivity. Qed.

Lemma column_entries_app fs i a b :
  column_entries fs i (a ++ b) = column_entries fs i a ++ column_entries fs i b.
Proof. apply flat_map_app. Qed.

Lemma column_entries_concat fs i bss :
  concat (map (column_entries fs i) bss) = column_entries fs i (concat bss).
Proof.
  induction bss as [|b bss IH]; [reflexivity|].
  cbn [map concat]. rewrite column_entries_app, IH. reflexivity.
Qed.

Lemma shred_records_columns fs recs :
  Forall (fun v => has_tyb (TGroup fs) v = true) recs ->
  shred_records fs recs = map (fun i => column_entries fs i recs) (seq 0 (length (columns fs))).
Proof.
  intros Hrecs. apply (nth_ext _ _ [] []).
  - rewrite map_length, seq_length. apply shred_records_length. exact Hrecs.
  - intros i Hi. rewrite shred_records_length in Hi by exact Hrecs.
    rewrite shred_records_nth by exact Hrecs.
    rewrite (nth_indep _ [] (column_entries fs 0 recs)) by (rewrite map_length, seq_length; exact Hi).
    rewrite (map_nth (fun i => column_entries fs i recs)), seq_nth by exact Hi. reflexivity.
Qed.

(** ** Footer truthfulness with respect to the batches *)

Lemma write_batch_rows compress cfg b : ra_rows (snd (write_batch compress cfg b)) = nlen b.
Proof. reflexivity. Qed.

Section Footer.
Variable compress : Z -> bytes -> bytes.
Variable cfg : config.
Variable bs : list (list value).
Let rgs := map (fun b => snd (write_batch compress cfg b)) bs.

Theorem footer_row_groups_length :
  length (fm_row_groups (footer_meta cfg rgs)) = length bs.
Proof.
  unfold footer_meta. cbn [fm_row_groups]. rewrite row_groups_meta_length.
  unfold rgs. apply map_length.
Qed.

Theorem footer_row_groups_rows :
  map rg_num_rows (fm_row_groups (footer_meta cfg rgs)) = map (fun b => Z.of_nat (length b)) bs.
Proof.
  unfold footer_meta. cbn [fm_row_groups]. rewrite row_groups_meta_rows.
  unfold rgs. rewrite map_map. apply map_ext. intros b.
  rewrite write_batch_rows. unfold nlen. apply nat_N_Z.
Qed.

Theorem footer_num_rows :
  fm_num_rows (footer_meta cfg rgs) = Z.of_nat (length (concat bs)).
Proof.
  unfold footer_meta. cbn [fm_num_rows]. unfold rgs. rewrite map_map.
  rewrite (map_ext _ (@nlen value)) by (intros b; apply write_batch_rows).
  rewrite sumN_nlen_concat. unfold nlen. apply nat_N_Z.
Qed.

Theorem footer_truthful :
  length (fm_row_groups (footer_meta cfg rgs)) = length bs /\
  map rg_num_rows (fm_row_groups (footer_meta cfg rgs)) = map (fun b => Z.of_nat (length b)) bs /\
  fm_num_rows (footer_meta cfg rgs) = Z.of_nat (length (concat bs)).
Proof.
  split; [apply footer_row_groups_length|]. split; [apply footer_row_groups_rows|apply footer_num_rows].
Qed.

End Footer.

Lemma nonempty_batches_nonempty h : Forall (fun b => 0 < length b) (nonempty_batches h).
Proof.
  unfold nonempty_batches. apply Forall_forall. intros b Hb.
  apply filter_In in Hb. destruct Hb as [_ Hb].
  destruct b as [|x b']; [discriminate Hb | cbn [length]; lia].
Qed.

Theorem footer_truthful_history compress cfg h :
  let fm := footer_meta cfg (snd (run_ops compress cfg h [] [])) in
  map rg_num_rows (fm_row_groups fm) = map (fun b => Z.of_nat (length b)) (nonempty_batches h) /\
  Forall (fun n => (0 < n)%Z) (map rg_num_rows (fm_row_groups fm)) /\
  fm_num_rows fm = Z.of_nat (length (concat (nonempty_batches h))).
Proof.
  cbv zeta. rewrite run_ops_snd. cbn [app]. rewrite <- nonempty_batches_eq.
  rewrite footer_row_groups_rows, footer_num_rows.
  split; [reflexivity|]. split; [|reflexivity].
  apply Forall_forall. intros n Hn. apply in_map_iff in Hn. destruct Hn as (b & Hb & Hin).
  pose proof (nonempty_batches_nonempty h) as Hne. rewrite Forall_forall in Hne.
  specialize (Hne b Hin). lia.
Qed.

(** ** Offsets (property C02) *)

Local Open Scope N_scope.

Definition batch_len (w : list bytes * rg_acc) : N := nlen (concat (fst w)).

Definition page_writes (pages : list page) : list bytes :=
  flat_map (fun p => [pg_header_bytes p; pg_body p]) pages.
Definition chunk_bytes (pages : list page) : bytes := concat (page_writes pages).

Lemma chunk_bytes_cons p ps :
  chunk_bytes (p :: ps) = pg_header_bytes p ++ pg_body p ++ chunk_bytes ps.
Proof. unfold chunk_bytes, page_writes. cbn [flat_map app concat]. reflexivity. Qed.

Lemma ca_compressed_pages c pages :
  ca_compressed (chunk_of_pages c pages) = nlen (chunk_bytes pages).
Proof.
  unfold chunk_of_pages. cbn [ca_compressed].
  induction pages as [|p ps IH]; [reflexivity|].
  rewrite chunk_bytes_cons, !nlen_app. cbn [map sumN]. rewrite IH. lia.
Qed.

Section Offsets.
Variable compress : Z -> bytes -> bytes.
Variable cfg : config.

Definition per_col (b : list value) : list (col * list page) :=
  map (fun ic => (snd ic, column_pages compress cfg (fst ic) (snd ic) b))
      (index_from 0 (columns (cfg_fields cfg))).

Lemma write_batch_fst b :
  fst (write_batch compress cfg b) = flat_map (fun cp => page_writes (snd cp)) (per_col b).
Proof.
  unfold write_batch, per_col. cbn [fst].
  rewrite !flat_map_concat_map, !map_map. f_equal. apply map_ext.
  intros [i c]. reflexivity.
Qed.

Lemma write_batch_chunks b :
  ra_chunks (snd (write_batch compress cfg b)) =
  map (fun cp => chunk_of_pages (fst cp) (snd cp)) (per_col b).
Proof.
  unfold write_batch, per_col. cbn [snd ra_chunks].
  rewrite !map_map. apply map_ext. intros [i c]. reflexivity.
Qed.

Lemma per_col_nth b j c :
  nth_error (columns (cfg_fields cfg)) j = Some c ->
  nth_error (per_col b) j = Some (c, column_pages compress cfg j c b).
Proof.
  intros Hj. unfold per_col. rewrite nth_error_map.
  rewrite (index_from_nth _ 0%nat j c Hj). reflexivity.
Qed.

Lemma concat_page_writes (pcs : list (col * list page)) :
  concat (flat_map (fun cp => page_writes (snd cp)) pcs) =
  concat (map (fun cp => chunk_bytes (snd cp)) pcs).
Proof.
  rewrite flat_map_concat_map.
  rewrite (concat_concat_map (fun cp : col * list page => page_writes (snd cp))). reflexivity.
Qed.

Lemma nlen_col_bytes (pcs : list (col * list page)) :
  nlen (concat (flat_map (fun cp => page_writes (snd cp)) pcs)) =
  sumN (map ca_compressed (map (fun cp => chunk_of_pages (fst cp) (snd cp)) pcs)).
Proof.
  rewrite concat_page_writes, <- sumN_nlen_concat, !map_map. f_equal.
  apply map_ext. intros cp. rewrite ca_compressed_pages. reflexivity.
Qed.

Lemma batch_len_rg_bytes b :
  batch_len (write_batch compress cfg b) = rg_bytes (snd (write_batch compress cfg b)).
Proof.
  unfold batch_len, rg_bytes. rewrite write_batch_fst, write_batch_chunks.
  apply nlen_col_bytes.
Qed.

Definition batch_start (bs : list (list value)) (i : nat) : N :=
  4 + sumN (map batch_len (map (write_batch compress cfg) (firstn i bs))).

Definition col_start (b : list value) (j : nat) : N :=
  nlen (concat (flat_map (fun cp => page_writes (snd cp)) (firstn j (per_col b)))).

Lemma batch_start_eq bs i :
  batch_start bs i =
  4 + sumN (map rg_bytes (firstn i (map (fun b => snd (write_batch compress cfg b)) bs))).
Proof.
  unfold batch_start. rewrite firstn_map, !map_map. do 2 f_equal.
  apply map_ext. intros b. apply batch_len_rg_bytes.
Qed.

Lemma col_start_eq b j :
  col_start b j = sumN (map ca_compressed (firstn j (ra_chunks (snd (write_batch compress cfg b))))).
Proof. unfold col_start. rewrite write_batch_chunks, firstn_map. apply nlen_col_bytes. Qed.

Lemma file_split bs i j b c :
  nth_error bs i = Some b ->
  nth_error (columns (cfg_fields cfg)) j = Some c ->
  exists pre post,
    file_of_batches compress cfg bs =
      pre ++ chunk_bytes (column_pages compress cfg j c b) ++ post /\
    nlen pre = batch_start bs i + col_start b j.
Proof.
  intros Hi Hj. unfold file_of_batches, batch_start, col_start, batch_len.
  rewrite !map_map, (concat_map_nth _ bs i b Hi), write_batch_fst, !concat_page_writes.
  unfold bytes. (* the instance of the generic lemma is stated with [list N] *)
  rewrite (concat_map_nth _ _ j _ (per_col_nth b j c Hj)). cbn [snd].
  eexists (magic ++ concat (map _ (firstn i bs)) ++ concat (map _ (firstn j (per_col b)))), _.
  split.
  - rewrite <- !app_assoc. reflexivity.
  - rewrite !nlen_app, <- sumN_nlen_concat, map_map. change (nlen magic) with 4. lia.
Qed.

Lemma footer_chunk_nth bs i j b c :
  nth_error bs i = Some b ->
  nth_error (columns (cfg_fields cfg)) j = Some c ->
  let rgs := map (fun b => snd (write_batch compress cfg b)) bs in
  exists rg,
    nth_error (fm_row_groups (footer_meta cfg rgs)) i = Some rg /\
    rg_num_rows rg = Z.of_N (nlen b) /\
    rg_total_byte_size rg = Z.of_N (batch_len (write_batch compress cfg b)) /\
    nth_error (rg_columns rg) j =
      Some (chunk_meta (cfg_codec cfg) (batch_start bs i + col_start b j)
                       (chunk_of_pages c (column_pages compress cfg j c b))).
Proof.
  intros Hi Hj rgs.
  assert (Hrg : nth_error rgs i = Some (snd (write_batch compress cfg b))).
  { unfold rgs. rewrite nth_error_map, Hi. reflexivity. }
  unfold footer_meta. cbn [fm_row_groups].
  rewrite (row_groups_meta_nth _ _ _ _ _ Hrg).
  eexists. split; [reflexivity|]. cbn [rg_num_rows rg_total_byte_size rg_columns].
  split; [reflexivity|]. split; [rewrite batch_len_rg_bytes; reflexivity|].
  assert (Hca : nth_error (ra_chunks (snd (write_batch compress cfg b))) j =
                Some (chunk_of_pages c (column_pages compress cfg j c b))).
  { rewrite write_batch_chunks, nth_error_map, (per_col_nth b j c Hj). reflexivity. }
  rewrite (chunks_meta_nth _ _ _ _ _ Hca), batch_start_eq, col_start_eq. reflexivity.
Qed.

(** C02 ([C02_offsets_truthful]); [pre] is everything before the chunk's first
    page header. *)
Theorem offsets_truthful bs i j b c :
  nth_error bs i = Some b ->
  nth_error (columns (cfg_fields cfg)) j = Some c ->
  let pages := column_pages compress cfg j c b in
  let fm := footer_meta cfg (map (fun b => snd (write_batch compress cfg b)) bs) in
  exists rg cc cm pre post,
    nth_error (fm_row_groups fm) i = Some rg /\
    nth_error (rg_columns rg) j = Some cc /\
    cc_meta cc = Some cm /\
    cm_path cm = c_path c /\
    file_of_batches compress cfg bs = pre ++ chunk_bytes pages ++ post /\
    cc_file_offset cc = Z.of_N (nlen pre) /\
    cm_data_page_offset cm = Z.of_N (nlen pre) /\
    nlen pre = batch_start bs i + col_start b j /\
    cm_total_compressed cm = Z.of_N (nlen (chunk_bytes pages)) /\
    rg_total_byte_size rg = Z.of_N (batch_len (write_batch compress cfg b)).
Proof.
  intros Hi Hj pages fm.
  destruct (footer_chunk_nth bs i j b c Hi Hj) as (rg & Hrg & _ & Hsz & Hcc).
  destruct (file_split bs i j b c Hi Hj) as (pre & post & Hfile & Hpre).
  exists rg. eexists. eexists. exists pre, post.
  split; [exact Hrg|]. split; [exact Hcc|].
  unfold chunk_meta. cbn [cc_meta cc_file_offset].
  split; [reflexivity|].
  cbn [cm_path cm_data_page_offset cm_total_compressed].
  rewrite ca_compressed_pages, Hpre.
  repeat (split; [first [reflexivity | exact Hfile | exact Hsz]|]).
  exact Hsz.
Qed.

Corollary offsets_truthful_history h i j b c :
  nth_error (nonempty_batches h) i = Some b ->
  nth_error (columns (cfg_fields cfg)) j = Some c ->
  let pages := column_pages compress cfg j c b in
  let fm := footer_meta cfg (snd (run_ops compress cfg h [] [])) in
  exists rg cc cm pre post,
    nth_error (fm_row_groups fm) i = Some rg /\
    nth_error (rg_columns rg) j = Some cc /\
    cc_meta cc = Some cm /\
    file_bytes compress cfg h = pre ++ chunk_bytes pages ++ post /\
    cc_file_offset cc = Z.of_N (nlen pre) /\
    cm_data_page_offset cm = Z.of_N (nlen pre) /\
    cm_total_compressed cm = Z.of_N (nlen (chunk_bytes pages)).
Proof.
  intros Hi Hj pages fm. unfold fm. rewrite run_ops_snd. cbn [app].
  rewrite <- nonempty_batches_eq, file_bytes_batches.
  destruct (offsets_truthful _ i j b c Hi Hj)
    as (rg & cc & cm & pre & post & H1 & H2 & H3 & _ & H5 & H6 & H7 & _ & H9 & _).
  exists rg, cc, cm, pre, post. auto 10.
Qed.

End Offsets.

(** ** Non-vacuity on a tiny configuration *)

Module Examples.
Definition idc : Z -> bytes -> bytes := fun _ b => b.
Definition cfg1 : config :=
  {| cfg_fields := [([65%N], Req, TLeaf PInt32)]; cfg_max := 2; cfg_codec := 0%Z |}.
Definition r : value := VGroup [VNum 7].
Definition h1 : list op := [OpWrite; OpAdd r; OpAdd r; OpAdd r; OpWrite; OpWrite; OpAdd r].

Example ex_batches : nonempty_batches h1 = [[r; r; r]].
Proof. vm_compute. reflexivity. Qed.

(** NewParquetWriter, 7 ops, Close; the data Write makes 4 sink writes (2 pages) *)
Example ex_calls : map (@length bytes) (run_history idc cfg1 h1) = [1; 0; 0; 0; 0; 4; 0; 0; 3]%nat.
Proof. vm_compute. reflexivity. Qed.

(** write number 3 is the second page header: the sink holds the magic and the
    first page *)
Example ex_fault :
  fst (run_fault (run_history idc cfg1 h1) (Some 3%nat)) = [false; false; false; false; false; true] /\
  snd (run_fault (run_history idc cfg1 h1) (Some 3%nat)) = firstn 3 (concat (run_history idc cfg1 h1)) /\
  map (@length N) (snd (run_fault (run_history idc cfg1 h1) (Some 3%nat))) = [4; 31; 8]%nat.
Proof. vm_compute. auto. Qed.

Example ex_fault_hyp : (3 < length (concat (run_history idc cfg1 h1)))%nat.
Proof. vm_compute. lia. Qed.

Example ex_file : file_bytes idc cfg1 h1 = file_of_batches idc cfg1 [[r; r; r]].
Proof. vm_compute. reflexivity. Qed.

Example ex_footer :
  let fm := footer_meta cfg1 (snd (run_ops idc cfg1 h1 [] [])) in
  (map rg_num_rows (fm_row_groups fm), fm_num_rows fm) = ([3%Z], 3%Z).
Proof. vm_compute. reflexivity. Qed.

(** two batches: the second row group's chunk starts at 4 + 74 = 78, where the
    file indeed has its first page header *)
Definition h2 : list op := [OpAdd r; OpAdd r; OpAdd r; OpWrite; OpAdd r; OpWrite].

Example ex_offsets :
  let bs := nonempty_batches h2 in
  let fm := footer_meta cfg1 (map (fun b => snd (write_batch idc cfg1 b)) bs) in
  map (fun rg => map cc_file_offset (rg_columns rg)) (fm_row_groups fm) = [[4%Z]; [78%Z]] /\
  batch_start idc cfg1 bs 1 + col_start idc cfg1 [r] 0 = 78 /\
  let pages := column_pages idc cfg1 0 {| c_path := [[65]]; c_reps := [Req]; c_prim := PInt32 |} [r] in
  firstn (length (chunk_bytes pages)) (skipn 78 (file_bytes idc cfg1 h2)) = chunk_bytes pages /\
  nlen (chunk_bytes pages) = 35.
Proof. vm_compute. auto. Qed.
End Examples.

Print Assumptions run_fault_none.
Print Assumptions run_fault_hit.
Print Assumptions run_fault_beyond.
Print Assumptions sink_fault_reported.
Print Assumptions run_ops_spec.
Print Assumptions file_bytes_batches.
Print Assumptions empty_write_inert.
Print Assumptions pending_at_close_dropped.
Print Assumptions footer_truthful.
Print Assumptions footer_truthful_history.
Print Assumptions offsets_truthful.
Print Assumptions offsets_truthful_history.
