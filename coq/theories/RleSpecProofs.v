(** * RleSpecProofs: the specification decoder inverts the specification
    encoder of the RLE/bit-packed hybrid, its image is well formed, and the
    specification bit-packing round-trips.  All of this holds for every width:
    [take_groups_encode], [hybrid_decode_encode] and
    [hybrid_decode_framed_encode] carry [In w widths] without using it.  The
    facts about widths, groups and runs that the proofs about the library's
    encoder and decoder share are here as well. *)
From Coq Require Import List NArith ZArith Lia Bool Arith.
From Coq Require Import ZifyN ZifyNat ZifyBool.
From PQ Require Import Bytes Varint VarintProofs Bitpack BitpackProofs RleSpec.
Import ListNotations.
Local Open Scope N_scope.

Lemma concat_map_length {A B} (f : A -> list B) k (l : list A) :
  Forall (fun a => length (f a) = k) l -> length (concat (map f l)) = (length l * k)%nat.
Proof.
  induction 1 as [|a l Ha Hl IH]; cbn [map concat length]; [reflexivity|].
  rewrite app_length, Ha, IH. lia.
Qed.

(** ** The supported widths *)

Lemma widths_pos w : In w widths -> 1 <= w <= 4.
Proof. revert w. apply widths_cases; lia. Qed.

Lemma widths_div w : In w widths -> (w + 7) / 8 = 1.
Proof. revert w. apply widths_cases; reflexivity. Qed.

Lemma widths_value_bytes w : In w widths -> value_bytes w = 1%nat.
Proof. intros Hw. unfold value_bytes. rewrite (widths_div w Hw). reflexivity. Qed.

(** ** The specification word as a base-[2^w] numeral *)

Fixpoint digits_val (w : N) (vals : list N) : N :=
  match vals with
  | [] => 0
  | v :: r => v mod 2 ^ w + digits_val w r * 2 ^ w
  end.

Lemma pow2_pos k : 0 < 2 ^ k.
Proof. apply N.neq_0_lt_0, N.pow_nonzero. lia. Qed.

Lemma digit_lt w v : v mod 2 ^ w < 2 ^ w.
Proof. apply N.mod_lt, N.pow_nonzero. lia. Qed.

Lemma spec_word_digits w i vals : spec_word w i vals = N.shiftl (digits_val w vals) (w * i).
Proof.
  revert i; induction vals as [|v r IH]; intros i; cbn [spec_word digits_val]; [symmetry; apply N.shiftl_0_l|].
  rewrite IH, N.mul_add_distr_l, N.mul_1_r, (N.add_comm (w * i)), <- N.shiftl_shiftl, <- N.shiftl_lor.
  rewrite (N.shiftl_mul_pow2 _ w), lor_disjoint by apply digit_lt. reflexivity.
Qed.

Lemma digits_val_bound w vals : digits_val w vals < 2 ^ (w * nlen vals).
Proof.
  unfold nlen. induction vals as [|v r IH]; cbn [digits_val length]; [apply pow2_pos|].
  rewrite Nat2N.inj_succ, N.mul_succ_r, N.pow_add_r.
  pose proof (digit_lt w v) as Hm.
  apply N.lt_le_trans with ((digits_val w r + 1) * 2 ^ w); [lia | apply N.mul_le_mono_r; lia].
Qed.

Lemma digits_val_digit w (i : nat) vals :
  N.shiftr (digits_val w vals) (w * N.of_nat i) mod 2 ^ w = nth i vals 0 mod 2 ^ w.
Proof.
  revert vals; induction i as [|i IH]; intros [|v r]; cbn [digits_val nth];
    rewrite ?N.shiftr_0_l; try reflexivity.
  - rewrite N.mul_0_r, N.shiftr_0_r, N.mod_add by (apply N.pow_nonzero; lia). apply N.mod_mod, N.pow_nonzero. lia.
  - rewrite Nat2N.inj_succ, N.mul_succ_r, (N.add_comm (w * _)), <- N.shiftr_shiftr, (N.shiftr_div_pow2 _ w).
    rewrite N.div_add, N.div_small, N.add_0_l, IH by (apply digit_lt || apply N.pow_nonzero; lia). reflexivity.
Qed.

Lemma pow256_pow2 w : 256 ^ w = 2 ^ (w * 8).
Proof. change 256 with (2 ^ 8). rewrite <- N.pow_mul_r. f_equal. lia. Qed.

Lemma spec_unpack_elem w g (i : nat) :
  length g = 8%nat -> Forall (fun v => v < 2 ^ w) g -> (i < 8)%nat ->
  N.shiftr (le_dec (spec_pack w g)) (w * N.of_nat i) mod 2 ^ w = nth i g 0.
Proof.
  intros Hl Hv Hi. unfold spec_pack.
  rewrite spec_word_digits, N.mul_0_r, N.shiftl_0_r, le_dec_enc, digits_val_digit.
  - apply N.mod_small, Forall_nth; [exact Hv | lia].
  - rewrite N2Nat.id, pow256_pow2. change 8 with (N.of_nat 8). rewrite <- Hl. apply digits_val_bound.
Qed.

Lemma spec_unpack_pack w g :
  length g = 8%nat -> Forall (fun v => v < 2 ^ w) g -> spec_unpack w (spec_pack w g) = g.
Proof.
  intros Hl Hv. unfold spec_unpack.
  change [0; 1; 2; 3; 4; 5; 6; 7] with (map N.of_nat [0; 1; 2; 3; 4; 5; 6; 7]%nat).
  rewrite map_map. cbn [map].
  rewrite !spec_unpack_elem by (assumption || lia).
  destruct g as [|v0 [|v1 [|v2 [|v3 [|v4 [|v5 [|v6 [|v7 [|v8 g]]]]]]]]]; try discriminate Hl.
  reflexivity.
Qed.

Lemma spec_pack_length w g : length (spec_pack w g) = N.to_nat w.
Proof. unfold spec_pack. apply le_enc_length. Qed.

Lemma spec_pack_wf w g : wf_bytes (spec_pack w g).
Proof. unfold spec_pack. apply le_enc_wf. Qed.

Lemma groupb_spec w g :
  groupb w g = true <-> length g = 8%nat /\ Forall (fun v => v < 2 ^ w) g.
Proof.
  unfold groupb. rewrite andb_true_iff, Nat.eqb_eq, forallb_forall, Forall_forall.
  unfold valb. split; intros [Hl Hv]; (split; [exact Hl|]); intros x Hx; specialize (Hv x Hx); lia.
Qed.

Lemma spec_unpack_groupb w bs : groupb w (spec_unpack w bs) = true.
Proof.
  apply groupb_spec. unfold spec_unpack. split; [reflexivity|].
  apply Forall_forall. intros x Hx. apply in_map_iff in Hx. destruct Hx as [i [<- _]].
  apply digit_lt.
Qed.

Lemma concat_spec_pack_length w gs :
  length (concat (map (spec_pack w) gs)) = (length gs * N.to_nat w)%nat.
Proof. apply concat_map_length, Forall_forall. intros g _. apply spec_pack_length. Qed.

Lemma take_groups_encode_gen w gs rest :
  Forall (fun g => groupb w g = true) gs ->
  take_groups w (length gs) (concat (map (spec_pack w) gs) ++ rest) = Some (gs, rest).
Proof.
  induction 1 as [|g gs Hg Hgs IH]; cbn [length map concat take_groups]; [reflexivity|].
  rewrite <- app_assoc.
  rewrite firstn_app_len by apply spec_pack_length.
  rewrite skipn_app_len by apply spec_pack_length.
  rewrite IH.
  destruct (Nat.leb_spec (N.to_nat w) (length (spec_pack w g ++ concat (map (spec_pack w) gs) ++ rest)))
    as [_|Hlt].
  - apply groupb_spec in Hg. destruct Hg as [Hl Hv].
    rewrite spec_unpack_pack by assumption. reflexivity.
  - rewrite app_length, spec_pack_length in Hlt. lia.
Qed.

Lemma take_groups_encode w gs rest :
  In w widths -> Forall (fun g => groupb w g = true) gs ->
  take_groups w (length gs) (concat (map (spec_pack w) gs) ++ rest) = Some (gs, rest).
Proof. intros _. apply take_groups_encode_gen. Qed.

Lemma take_groups_inv w n bs gs rest :
  take_groups w n bs = Some (gs, rest) ->
  length gs = n /\ Forall (fun g => groupb w g = true) gs /\
  rest = skipn (n * N.to_nat w) bs /\ (n * N.to_nat w <= length bs)%nat.
Proof.
  revert bs gs rest; induction n as [|n IH]; intros bs gs rest H; cbn [take_groups] in H.
  - injection H as <- <-. repeat split; [constructor | cbn [Nat.mul]; lia].
  - destruct (Nat.leb (N.to_nat w) (length bs)) eqn:Ele; [|discriminate H]. apply Nat.leb_le in Ele.
    destruct (take_groups w n (skipn (N.to_nat w) bs)) as [[gs' rest']|] eqn:E; [|discriminate H].
    injection H as <- <-. destruct (IH _ _ _ E) as (Hl & Hf & -> & Hle). rewrite skipn_length in Hle.
    cbn [Nat.mul length]. repeat split;
      [lia | constructor; [apply spec_unpack_groupb | exact Hf] | symmetry; apply skipn_add | lia].
Qed.

Lemma runs_values_app a b : runs_values (a ++ b) = runs_values a ++ runs_values b.
Proof. unfold runs_values. rewrite map_app, concat_app. reflexivity. Qed.

Lemma runs_encode_app w a b : runs_encode w (a ++ b) = runs_encode w a ++ runs_encode w b.
Proof. unfold runs_encode. rewrite map_app, concat_app. reflexivity. Qed.

Lemma runs_encode_cons w r rs : runs_encode w (r :: rs) = run_encode w r ++ runs_encode w rs.
Proof. reflexivity. Qed.

Lemma runs_values_cons r rs : runs_values (r :: rs) = run_values r ++ runs_values rs.
Proof. reflexivity. Qed.

Lemma payload_wf w gs : wf_bytes (concat (map (spec_pack w) gs)).
Proof.
  apply wf_bytes_concat, Forall_map, Forall_forall. intros g _. apply spec_pack_wf.
Qed.

Lemma run_encode_wf w r : wf_bytes (run_encode w r).
Proof.
  destruct r as [c v|gs]; cbn [run_encode]; apply wf_bytes_app;
    (split; [apply uleb_enc_wf | apply le_enc_wf || apply payload_wf]).
Qed.

Lemma runs_encode_wf w rs : wf_bytes (runs_encode w rs).
Proof.
  apply wf_bytes_concat, Forall_map, Forall_forall. intros r _. apply run_encode_wf.
Qed.

Lemma run_encode_length_pos w r : (0 < length (run_encode w r))%nat.
Proof.
  destruct r as [c v|gs]; cbn [run_encode]; rewrite app_length;
    [pose proof (uleb_enc_len (2 * c)) | pose proof (uleb_enc_len (2 * nlen gs + 1))]; lia.
Qed.

Lemma wf_run_rle w c v : wf_run w (RRle c v) <-> 1 <= c /\ v < 2 ^ w.
Proof. unfold wf_run, wf_runb, valb. lia. Qed.

Lemma wf_run_bp w gs :
  wf_run w (RBp gs) <-> gs <> [] /\ Forall (fun g => groupb w g = true) gs.
Proof.
  unfold wf_run, wf_runb. rewrite andb_true_iff, negb_true_iff, Nat.eqb_neq, forallb_forall, Forall_forall.
  split; intros [Hn Hf]; (split; [|exact Hf]).
  - intros ->. apply Hn. reflexivity.
  - destruct gs; [congruence | discriminate].
Qed.

(** ** One step of the specification decoder *)

(** The run that header [h] announces in front of [r], and the bytes after it. *)
Definition take_run (w h : N) (r : bytes) : option (run * bytes) :=
  if N.even h then
    match take_le (value_bytes w) r with
    | Some (v, r') => if (1 <=? h / 2) && valb w v then Some (RRle (h / 2) v, r') else None
    | None => None
    end
  else if h / 2 =? 0 then None
  else if N.of_nat (length r) <? w * (h / 2) then None
  else
    match take_groups w (N.to_nat (h / 2)) r with
    | Some (gs, r') => Some (RBp gs, r')
    | None => None
    end.

Definition decode_step (f : nat) (w : N) (bs : bytes) : option (list run) :=
  match uleb_dec bs with
  | Some (h, r) =>
      match take_run w h r with
      | Some (run, r') => option_map (cons run) (hybrid_decode_fuel f w r')
      | None => None
      end
  | None => None
  end.

Lemma hybrid_decode_fuel_S f w bs :
  hybrid_decode_fuel (S f) w bs = match bs with [] => Some [] | _ => decode_step f w bs end.
Proof.
  destruct bs as [|b bs]; [reflexivity|]. cbn [hybrid_decode_fuel]. unfold decode_step, take_run.
  destruct (uleb_dec (b :: bs)) as [[h r]|]; [|reflexivity].
  destruct (N.even h); cbv zeta.
  - destruct (take_le (value_bytes w) r) as [[v r']|]; [|reflexivity].
    destruct ((1 <=? h / 2) && valb w v); [|reflexivity].
    destruct (hybrid_decode_fuel f w r'); reflexivity.
  - destruct (h / 2 =? 0); [reflexivity|].
    destruct (N.of_nat (length r) <? w * (h / 2)); [reflexivity|].
    destruct (take_groups w (N.to_nat (h / 2)) r) as [[gs r']|]; [|reflexivity].
    destruct (hybrid_decode_fuel f w r'); reflexivity.
Qed.

Lemma take_run_inv w h r run r' :
  take_run w h r = Some (run, r') ->
  if N.even h
  then exists v, take_le (value_bytes w) r = Some (v, r') /\ run = RRle (h / 2) v /\
                 1 <= h / 2 /\ v < 2 ^ w
  else exists gs, take_groups w (N.to_nat (h / 2)) r = Some (gs, r') /\ run = RBp gs /\
                  h / 2 <> 0 /\ w * (h / 2) <= nlen r.
Proof.
  unfold take_run, nlen. intros H. destruct (N.even h).
  - destruct (take_le (value_bytes w) r) as [[v r0]|]; [|discriminate H].
    destruct ((1 <=? h / 2) && valb w v) eqn:Ec; [|discriminate H].
    injection H as <- <-. exists v. unfold valb in Ec. repeat split; lia.
  - destruct (N.eqb_spec (h / 2) 0) as [|Hg]; [discriminate H|].
    destruct (N.ltb_spec (N.of_nat (length r)) (w * (h / 2))) as [|Hl]; [discriminate H|].
    destruct (take_groups w (N.to_nat (h / 2)) r) as [[gs r0]|]; [|discriminate H].
    injection H as <- <-. exists gs. auto.
Qed.

Lemma take_run_rest w h r run r' : take_run w h r = Some (run, r') -> exists k, r' = skipn k r.
Proof.
  intros H. apply take_run_inv in H. destruct (N.even h).
  - destruct H as (v & H & _). apply take_le_inv in H. destruct H as (_ & _ & <-).
    eexists. reflexivity.
  - destruct H as (gs & H & _). apply take_groups_inv in H. destruct H as (_ & _ & -> & _).
    eexists. reflexivity.
Qed.

Lemma even_double c : N.even (2 * c) = true.
Proof. rewrite N.even_mul. reflexivity. Qed.

Lemma even_double_succ g : N.even (2 * g + 1) = false.
Proof. rewrite N.add_comm, N.even_add_mul_2. reflexivity. Qed.

Lemma value_bytes_fits w v : v < 2 ^ w -> v < 256 ^ N.of_nat (value_bytes w).
Proof.
  intros Hv. unfold value_bytes. rewrite N2Nat.id, pow256_pow2.
  eapply N.lt_le_trans; [exact Hv|]. apply N.pow_le_mono_r; lia.
Qed.

Lemma take_run_encode w r tail :
  wf_run w r ->
  exists h p, run_encode w r = uleb_enc h ++ p /\ take_run w h (p ++ tail) = Some (r, tail).
Proof.
  intros Hwf. unfold take_run.
  destruct r as [c v|gs]; cbn [run_encode]; eexists _, _; (split; [reflexivity|]).
  - apply wf_run_rle in Hwf. destruct Hwf as [Hc Hv].
    rewrite even_double, take_le_enc by (apply value_bytes_fits; exact Hv).
    replace (2 * c / 2) with c by lia.
    replace ((1 <=? c) && valb w v) with true by (unfold valb; lia). reflexivity.
  - apply wf_run_bp in Hwf. destruct Hwf as [Hne Hgs].
    rewrite even_double_succ. replace ((2 * nlen gs + 1) / 2) with (nlen gs) by lia.
    assert (Hlen : nlen gs <> 0) by (destruct gs; [congruence | unfold nlen; cbn [length]; lia]).
    destruct (N.eqb_spec (nlen gs) 0) as [H0|_]; [contradiction|].
    rewrite app_length, concat_spec_pack_length.
    destruct (N.ltb_spec (N.of_nat (length gs * N.to_nat w + length tail)) (w * nlen gs)) as [Hlt|_].
    + exfalso. unfold nlen in Hlt. lia.
    + unfold nlen at 1. rewrite Nat2N.id, take_groups_encode_gen by exact Hgs. reflexivity.
Qed.

Lemma hybrid_decode_fuel_encode w rs : forall f,
  Forall (wf_run w) rs -> (length (runs_encode w rs) < f)%nat ->
  hybrid_decode_fuel f w (runs_encode w rs) = Some rs.
Proof.
  induction rs as [|r rs IH]; intros f Hwf Hf; (destruct f as [|f]; [lia|]); [reflexivity|].
  apply Forall_cons_iff in Hwf. destruct Hwf as [Hwr Hwrs].
  rewrite runs_encode_cons in Hf |- *. rewrite app_length in Hf.
  destruct (take_run_encode w r (runs_encode w rs) Hwr) as (h & p & Hr & Ht).
  pose proof (run_encode_length_pos w r) as Hpos.
  rewrite hybrid_decode_fuel_S.
  destruct (run_encode w r ++ runs_encode w rs) as [|b bs] eqn:E.
  { apply (f_equal (@length _)) in E. rewrite app_length in E. cbn [length] in E. lia. }
  rewrite <- E, Hr, <- app_assoc. unfold decode_step.
  rewrite uleb_dec_enc, Ht, IH by (assumption || lia). reflexivity.
Qed.

Theorem hybrid_decode_encode w rs :
  In w widths -> Forall (wf_run w) rs -> hybrid_decode w (runs_encode w rs) = Some rs.
Proof. intros _ Hwf. unfold hybrid_decode. apply hybrid_decode_fuel_encode; [exact Hwf | lia]. Qed.

Theorem hybrid_decode_framed_encode w rs rest :
  In w widths -> Forall (wf_run w) rs -> nlen (runs_encode w rs) < 2 ^ 32 ->
  hybrid_decode_framed w (hybrid_encode w rs ++ rest) = Some (rs, rest).
Proof.
  intros Hw Hwf Hlen. unfold hybrid_decode_framed, hybrid_encode.
  rewrite <- app_assoc, take_le_enc by exact Hlen.
  destruct (N.ltb_spec (N.of_nat (length (runs_encode w rs ++ rest))) (nlen (runs_encode w rs)))
    as [Hlt|_].
  - exfalso. rewrite app_length in Hlt. unfold nlen in Hlt. lia.
  - unfold nlen. rewrite Nat2N.id, firstn_app_exact, skipn_app_exact.
    rewrite hybrid_decode_encode by assumption. reflexivity.
Qed.

Lemma hybrid_decode_framed_inv w bs rs rest :
  hybrid_decode_framed w bs = Some (rs, rest) ->
  exists body,
    bs = firstn 4 bs ++ body ++ rest /\ length (firstn 4 bs) = 4%nat /\
    nlen body = le_dec (firstn 4 bs) /\ hybrid_decode w body = Some rs.
Proof.
  unfold hybrid_decode_framed, take_le. intros H.
  destruct (Nat.leb 4 (length bs)) eqn:E4; [|discriminate H]. apply Nat.leb_le in E4.
  set (len := le_dec (firstn 4 bs)) in *. set (r := skipn 4 bs) in *.
  destruct (N.ltb_spec (N.of_nat (length r)) len) as [|El]; [discriminate H|].
  destruct (hybrid_decode w (firstn (N.to_nat len) r)) as [rs'|] eqn:Eh; [|discriminate H].
  injection H as -> <-. exists (firstn (N.to_nat len) r). repeat split.
  - unfold r. rewrite (firstn_skipn (N.to_nat len)), (firstn_skipn 4). reflexivity.
  - apply firstn_length_le. exact E4.
  - unfold nlen. rewrite firstn_length_le; lia.
  - exact Eh.
Qed.

Lemma take_run_wf w h r run r' : take_run w h r = Some (run, r') -> wf_run w run.
Proof.
  intros H. apply take_run_inv in H. destruct (N.even h).
  - destruct H as (v & _ & -> & Hc & Hv). apply wf_run_rle. auto.
  - destruct H as (gs & H & -> & Hg & _). destruct (take_groups_inv _ _ _ _ _ H) as (Hl & Hf & _).
    apply wf_run_bp. split; [|exact Hf]. intros ->. cbn [length] in Hl. lia.
Qed.

Lemma hybrid_decode_fuel_wf f w : forall bs rs,
  hybrid_decode_fuel f w bs = Some rs -> Forall (wf_run w) rs.
Proof.
  induction f as [|f IH]; intros bs rs H; [discriminate H|].
  rewrite hybrid_decode_fuel_S in H. destruct bs as [|b bs].
  - injection H as <-. constructor.
  - unfold decode_step in H.
    destruct (uleb_dec (b :: bs)) as [[h r]|]; [|discriminate H].
    destruct (take_run w h r) as [[run r']|] eqn:Et; [|discriminate H].
    destruct (hybrid_decode_fuel f w r') as [rs'|] eqn:E; [|discriminate H].
    injection H as <-. constructor; [exact (take_run_wf _ _ _ _ _ Et) | exact (IH _ _ E)].
Qed.

Theorem hybrid_decode_wf w bs rs : hybrid_decode w bs = Some rs -> Forall (wf_run w) rs.
Proof. unfold hybrid_decode. apply hybrid_decode_fuel_wf. Qed.

Print Assumptions hybrid_decode_encode.
Print Assumptions hybrid_decode_framed_encode.
Print Assumptions hybrid_decode_wf.
