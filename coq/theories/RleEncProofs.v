(** * RleEncProofs: the level encoder of internal/rle/rle.go ([Rle.rle_encode])
    produces a well-formed RLE/bit-packed hybrid stream ([RleSpec]) of the
    values it was given, followed by fewer than 8 zero padding values.

    The proof is an invariant of the encoder state machine, indexed by the list
    of values consumed so far: the output buffer is the encoding of a list of
    closed runs, followed by an open bit-packed run whose header byte is still
    the placeholder 0; the values not yet written sit in [r_buf] (or, when a
    repeat of 8 or more is in progress, are described by [r_prev]/[r_rep]). *)
From Coq Require Import List NArith ZArith Lia Bool Arith PeanoNat.
From Coq Require Import ZifyN ZifyNat ZifyBool.
From PQ Require Import Bytes Varint VarintProofs Bitpack BitpackProofs RleSpec RleSpecProofs Rle.
Import ListNotations.
Local Open Scope N_scope.

Lemma repeat_snoc {A} (x : A) n : repeat x n ++ [x] = repeat x (S n).
Proof. rewrite <- repeat_cons. reflexivity. Qed.

Lemma size_nat_bound n k : n < 2 ^ N.of_nat k -> (N.size_nat n <= k)%nat.
Proof.
  destruct n as [|p]; cbn [N.size_nat]; [lia|]. revert k.
  induction p as [p IH|p IH|]; intros [|k] Hk; cbn [Pos.size_nat]; try (cbn in Hk; lia).
  all: rewrite Nat2N.inj_succ, N.pow_succ_r' in Hk; specialize (IH k); lia.
Qed.

Lemma rle_value_bytes_spec w v : In w widths -> rle_value_bytes w v = le_enc (value_bytes w) v.
Proof. revert w. apply widths_cases; reflexivity. Qed.

Lemma runs_encode_snoc w rs r : runs_encode w (rs ++ [r]) = runs_encode w rs ++ run_encode w r.
Proof. rewrite runs_encode_app, runs_encode_cons. cbn. rewrite app_nil_r. reflexivity. Qed.

Lemma runs_values_snoc rs r : runs_values (rs ++ [r]) = runs_values rs ++ run_values r.
Proof. rewrite runs_values_app, runs_values_cons. cbn. rewrite app_nil_r. reflexivity. Qed.

Definition val_ok (w v : N) : Prop := v < 2 ^ w.

Definition group_ok (w : N) (g : list N) : Prop :=
  length g = 8%nat /\ Forall (val_ok w) g.

Definition closed_ok (w : N) (r : run) : Prop :=
  match r with
  | RBp gs => (1 <= length gs <= 63)%nat /\ Forall (group_ok w) gs
  | RRle c v => 8 <= c /\ c < 2 ^ 31 /\ val_ok w v
  end.

Lemma closed_ok_wf w r : closed_ok w r -> wf_run w r.
Proof.
  destruct r as [c v|gs]; cbn [closed_ok].
  - intros (Hc & _ & Hv). apply wf_run_rle. unfold val_ok in Hv. lia.
  - intros [Hl Hg]. apply wf_run_bp. split.
    + intros ->. cbn [length] in Hl. lia.
    + eapply Forall_impl; [|exact Hg]. intros g. apply groupb_spec.
Qed.

Lemma closed_ok_shape w r :
  closed_ok w r -> match r with RBp gs => (length gs <= 63)%nat | RRle c _ => 8 <= c end.
Proof. destruct r as [c v|gs]; cbn [closed_ok]; intros H; lia. Qed.

Lemma run_encode_bp w gs :
  In w widths -> Forall (group_ok w) gs -> (length gs <= 63)%nat ->
  run_encode w (RBp gs) = ((2 * nlen gs + 1) mod 256) :: concat (map (pack w) gs).
Proof.
  intros Hw Hg Hl. cbn [run_encode].
  assert (Hsmall : 2 * nlen gs + 1 < 128) by (unfold nlen; lia).
  rewrite uleb_enc_small by exact Hsmall.
  rewrite N.mod_small by lia. cbn [app]. f_equal. f_equal.
  apply map_ext_in. intros g Hin. rewrite Forall_forall in Hg.
  destruct (Hg g Hin) as [Hlen Hv]. symmetry. apply pack_spec; assumption.
Qed.

Lemma closed_run_length w r :
  In w widths -> closed_ok w r -> (length (run_encode w r) <= length (run_values r))%nat.
Proof.
  intros Hw Hr. pose proof (widths_pos w Hw) as Hw4.
  destruct r as [c v|gs]; cbn [closed_ok] in Hr; cbn [run_encode run_values].
  - destruct Hr as (Hc & Hc31 & Hv).
    rewrite app_length, le_enc_length, repeat_length, (widths_value_bytes w Hw).
    pose proof (uleb_enc_bound (2 * c) 4) as Hu. change (128 * 2 ^ (7 * N.of_nat 4)) with (2 ^ 35) in Hu. lia.
  - destruct Hr as [Hl Hg].
    rewrite uleb_enc_small by (unfold nlen; lia).
    cbn [app length]. rewrite concat_spec_pack_length.
    rewrite <- (map_id gs) at 2.
    rewrite (concat_map_length (fun g => g) 8%nat) by (eapply Forall_impl; [|exact Hg]; intros g Hgk; apply Hgk).
    nia.
Qed.

Lemma closed_runs_length w rs :
  In w widths -> Forall (closed_ok w) rs ->
  (length (runs_encode w rs) <= length (runs_values rs))%nat.
Proof.
  intros Hw. induction 1 as [|r rs Hr Hrs IH]; [reflexivity|].
  rewrite runs_encode_cons, runs_values_cons, !app_length.
  pose proof (closed_run_length w r Hw Hr). lia.
Qed.

(** ** The output-side invariant: closed runs [rs], open bit-packed run [gs] *)

(** the bytes of the open run (placeholder header, then the groups), and where
    its header lies when the closed runs before it take [pre] *)
Definition open_bytes (w : N) (gs : list (list N)) : bytes :=
  match gs with [] => [] | _ => 0 :: concat (map (pack w) gs) end.

Definition open_hp (pre : bytes) (gs : list (list N)) : option nat :=
  match gs with [] => None | _ => Some (length pre) end.

Lemma open_bytes_snoc w gs g :
  open_bytes w (gs ++ [g]) = match gs with [] => [0] | _ => open_bytes w gs end ++ pack w g.
Proof.
  destruct gs as [|g0 gs]; cbn [app open_bytes map concat]; [rewrite app_nil_r; reflexivity|].
  rewrite map_app, concat_app. cbn [map concat]. rewrite app_nil_r, <- app_assoc. reflexivity.
Qed.

(** reads [r_w], [r_out], [r_groups] and [r_hp] only: [set_rep_prev] and a
    change of [r_buf] preserve it by conversion *)
Definition Core (w : N) (rs : list run) (gs : list (list N)) (r : rle) : Prop :=
  Forall (closed_ok w) rs /\ Forall (group_ok w) gs /\ (length gs <= 63)%nat /\
  r_w r = w /\ r_groups r = nlen gs /\
  r_out r = runs_encode w rs ++ open_bytes w gs /\ r_hp r = open_hp (runs_encode w rs) gs.

Lemma Core_closed w rs r :
  Core w rs [] r -> r_out r = runs_encode w rs /\ r_hp r = None /\ Forall (closed_ok w) rs.
Proof.
  intros (Hrs & _ & _ & _ & _ & Hout & Hhp). cbn [open_bytes] in Hout. rewrite app_nil_r in Hout. auto.
Qed.

Lemma Core_close w rs r' x :
  Forall (closed_ok w) rs -> closed_ok w x -> r_w r' = w -> r_groups r' = 0 -> r_hp r' = None ->
  r_out r' = runs_encode w rs ++ run_encode w x ->
  Core w (rs ++ [x]) [] r'.
Proof.
  intros Hrs Hx Hw' Hg' Hhp' Hout'.
  refine (conj _ (conj _ (conj _ (conj Hw' (conj Hg' (conj _ Hhp')))))).
  - apply Forall_app. split; [exact Hrs | constructor; [exact Hx | constructor]].
  - constructor.
  - cbn [length]. lia.
  - cbn [open_bytes]. rewrite app_nil_r, runs_encode_snoc. exact Hout'.
Qed.

(** *** endPreviousBitPackedRun *)

Lemma end_previous_bp_fields r :
  r_w (end_previous_bp r) = r_w r /\ r_prev (end_previous_bp r) = r_prev r /\
  r_buf (end_previous_bp r) = r_buf r /\ r_rep (end_previous_bp r) = r_rep r.
Proof. unfold end_previous_bp. destruct (r_hp r) as [hp|]; cbn [r_w r_prev r_buf r_rep]; auto. Qed.

Lemma end_previous_bp_core w rs gs r :
  In w widths -> Core w rs gs r ->
  exists rs', Core w rs' [] (end_previous_bp r) /\
              runs_values rs' = runs_values rs ++ concat gs.
Proof.
  intros Hw HC. pose proof HC as (Hrs & Hgs & Hlen & Hrw & Hgr & Hout & Hhp).
  unfold end_previous_bp. rewrite Hhp. destruct gs as [|g gs]; cbn [open_hp].
  - exists rs. split; [exact HC|]. cbn [concat]. rewrite app_nil_r. reflexivity.
  - exists (rs ++ [RBp (g :: gs)]). split; [|apply runs_values_snoc].
    apply Core_close; cbn [r_w r_out r_groups r_hp]; try reflexivity || assumption.
    + cbn [closed_ok]. split; [cbn [length] in *; lia | exact Hgs].
    + cbn [open_bytes] in Hout. rewrite Hout, update_at_app_mid, (run_encode_bp w (g :: gs) Hw Hgs Hlen), Hgr. reflexivity.
Qed.

(** *** writeOrAppendBitPackedRun *)

(** The part of [writeOrAppendBitPackedRun] after the [groupCount >= 63] test. *)
Definition woa_tail (r1 : rle) (vals8 : list N) : rle :=
  let '(out2, hp2) :=
    match r_hp r1 with
    | None => (r_out r1 ++ [0], Some (length (r_out r1)))
    | Some hp => (r_out r1, Some hp)
    end in
  {| r_w := r_w r1;
     r_out := out2 ++ pack (r_w r1) vals8;
     r_prev := r_prev r1; r_buf := []; r_rep := 0;
     r_groups := r_groups r1 + 1; r_hp := hp2 |}.

Lemma write_or_append_bp_eq r g :
  write_or_append_bp r g = woa_tail (if 63 <=? r_groups r then end_previous_bp r else r) g.
Proof. reflexivity. Qed.

Lemma write_or_append_bp_fields r g :
  r_buf (write_or_append_bp r g) = [] /\ r_rep (write_or_append_bp r g) = 0 /\
  r_prev (write_or_append_bp r g) = r_prev r.
Proof.
  rewrite write_or_append_bp_eq. unfold woa_tail.
  destruct (r_hp _); cbn [r_buf r_rep r_prev]; repeat split;
    (destruct (63 <=? r_groups r); [apply end_previous_bp_fields | reflexivity]).
Qed.

Lemma woa_tail_core w rs gs r g :
  Core w rs gs r -> (length gs < 63)%nat -> group_ok w g ->
  Core w rs (gs ++ [g]) (woa_tail r g).
Proof.
  intros (Hrs & Hgs & Hlen & Hrw & Hgr & Hout & Hhp) Hlt Hg.
  assert (Hgs' : Forall (group_ok w) (gs ++ [g])).
  { apply Forall_app. split; [exact Hgs | constructor; [exact Hg | constructor]]. }
  assert (Hgr' : (length (gs ++ [g]) <= 63)%nat /\ r_groups r + 1 = nlen (gs ++ [g])).
  { rewrite Hgr. unfold nlen. rewrite app_length. cbn [length]. lia. }
  refine (conj Hrs (conj Hgs' (conj (proj1 Hgr') _))).
  unfold woa_tail. rewrite Hhp, open_bytes_snoc.
  destruct gs as [|g0 gs0]; cbn [open_hp r_w r_out r_groups r_hp app open_bytes] in *.
  - rewrite app_nil_r in Hout. rewrite Hout, Hrw, <- app_assoc. repeat split. apply Hgr'.
  - rewrite Hout, Hrw, <- app_assoc. repeat split. apply Hgr'.
Qed.

Lemma write_or_append_bp_core w rs gs r g :
  In w widths -> Core w rs gs r -> group_ok w g ->
  exists rs' gs', Core w rs' gs' (write_or_append_bp r g) /\
                  runs_values rs' ++ concat gs' = runs_values rs ++ concat gs ++ g.
Proof.
  intros Hw HC Hg. rewrite write_or_append_bp_eq.
  destruct (63 <=? r_groups r) eqn:E63.
  - destruct (end_previous_bp_core w rs gs r Hw HC) as (rs' & HC' & Hval).
    exists rs', ([] ++ [g]). split.
    + apply woa_tail_core; [exact HC' | cbn [length]; lia | exact Hg].
    + rewrite Hval. cbn [app concat]. rewrite app_nil_r, <- app_assoc. reflexivity.
  - exists rs, (gs ++ [g]). split.
    + apply woa_tail_core; [exact HC | | exact Hg].
      destruct HC as (_ & _ & _ & _ & Hgr & _). unfold nlen in Hgr. lia.
    + rewrite concat_app. cbn [concat]. rewrite app_nil_r. reflexivity.
Qed.

(** *** writeRLERun *)

Lemma write_rle_run_fields r :
  r_buf (write_rle_run r) = [] /\ r_rep (write_rle_run r) = 0 /\
  r_prev (write_rle_run r) = r_prev r.
Proof.
  unfold write_rle_run. cbn [r_buf r_rep r_prev]. repeat split. apply end_previous_bp_fields.
Qed.

Lemma write_rle_run_core w rs gs r :
  In w widths -> Core w rs gs r -> 8 <= r_rep r -> r_rep r < 2 ^ 31 -> val_ok w (r_prev r) ->
  exists rs', Core w rs' [] (write_rle_run r) /\
              runs_values rs' =
              runs_values rs ++ concat gs ++ repeat (r_prev r) (N.to_nat (r_rep r)).
Proof.
  intros Hw HC H8 H31 Hv.
  destruct (end_previous_bp_core w rs gs r Hw HC) as (rs1 & HC1 & Hval).
  destruct (end_previous_bp_fields r) as (_ & Ep & _ & Er).
  destruct (Core_closed _ _ _ HC1) as (Hout & Hhp & Hrs1).
  pose proof HC1 as (_ & _ & _ & Hrw & Hgr & _).
  exists (rs1 ++ [RRle (r_rep r) (r_prev r)]). split.
  - apply Core_close; unfold write_rle_run; cbn [r_w r_out r_groups r_hp closed_ok]; auto.
    rewrite Hout, Er, Ep, Hrw. cbn [run_encode].
    rewrite leb128_go_spec by lia. rewrite rle_value_bytes_spec by exact Hw. reflexivity.
  - rewrite runs_values_snoc, Hval, <- app_assoc. reflexivity.
Qed.

(** ** The input-side invariant: values consumed but not yet written *)

Definition pend (w : N) (r : rle) (p : list N) : Prop :=
  Forall (val_ok w) p /\
  if r_rep r <? 8 then
    p = r_buf r /\ (length (r_buf r) < 8)%nat /\
    exists pre, r_buf r = pre ++ repeat (r_prev r) (N.to_nat (r_rep r))
  else
    r_buf r = repeat (r_prev r) 7 /\ p = repeat (r_prev r) (N.to_nat (r_rep r)).

Lemma pend_lt w r p :
  r_rep r < 8 ->
  pend w r p <-> Forall (val_ok w) p /\ p = r_buf r /\ (length (r_buf r) < 8)%nat /\
                 exists pre, r_buf r = pre ++ repeat (r_prev r) (N.to_nat (r_rep r)).
Proof. intros H. unfold pend. destruct (N.ltb_spec (r_rep r) 8); [reflexivity | lia]. Qed.

Lemma pend_ge w r p :
  8 <= r_rep r -> pend w r p ->
  r_buf r = repeat (r_prev r) 7 /\ p = repeat (r_prev r) (N.to_nat (r_rep r)) /\ val_ok w (r_prev r).
Proof.
  intros H [Hv Hp]. destruct (N.ltb_spec (r_rep r) 8); [lia|]. destruct Hp as [Hb ->].
  repeat split; try assumption.
  destruct (N.to_nat (r_rep r)) as [|n] eqn:En; [lia|]. cbn [repeat] in Hv.
  apply Forall_cons_iff in Hv. apply Hv.
Qed.

Lemma pend_full w r p :
  r_rep r = 7 -> pend w r p -> r_buf r = repeat (r_prev r) 7 /\ p = repeat (r_prev r) 7.
Proof.
  intros H7 Hp. apply pend_lt in Hp; [|lia]. destruct Hp as (_ & -> & Hl & pre & Hpre).
  rewrite H7 in Hpre. change (N.to_nat 7) with 7%nat in Hpre.
  destruct pre as [|y pre]; [auto|].
  rewrite Hpre in Hl. cbn [app length] in Hl. rewrite app_length, repeat_length in Hl. lia.
Qed.

Definition Inv (w : N) (consumed : list N) (r : rle) : Prop :=
  exists rs gs p,
    Core w rs gs r /\ pend w r p /\ consumed = runs_values rs ++ concat gs ++ p.

Lemma Inv_new w : Inv w [] (rle_new w).
Proof.
  exists [], [], []. split; [|split; [|reflexivity]].
  - refine (conj _ (conj _ (conj _ _))); [constructor | constructor | cbn [length]; lia | repeat split].
  - apply pend_lt; cbn [rle_new r_rep r_buf r_prev length]; [lia|].
    repeat split; [constructor | lia | exists []; reflexivity].
Qed.

Definition with_buf (r : rle) (b : list N) : rle :=
  {| r_w := r_w r; r_out := r_out r; r_prev := r_prev r; r_buf := b;
     r_rep := r_rep r; r_groups := r_groups r; r_hp := r_hp r |}.

Lemma rle_push_eq r v :
  rle_push r v =
  if Nat.eqb (length (r_buf r ++ [v])) 8
  then write_or_append_bp (with_buf r (r_buf r ++ [v])) (r_buf r ++ [v])
  else with_buf r (r_buf r ++ [v]).
Proof. reflexivity. Qed.

(** [RLE.Write] pushes after it has set [repeatCount] and [prev] *)
Lemma rle_push_inv w rs gs r v k pv :
  In w widths -> Core w rs gs r ->
  (length (r_buf r) < 8)%nat -> Forall (val_ok w) (r_buf r ++ [v]) -> k < 8 ->
  (exists pre, r_buf r ++ [v] = pre ++ repeat pv (N.to_nat k)) ->
  Inv w (runs_values rs ++ concat gs ++ r_buf r ++ [v]) (rle_push (set_rep_prev r k pv) v).
Proof.
  intros Hw HC Hlen Hv Hk8 Hsuf.
  rewrite rle_push_eq. cbn [set_rep_prev r_buf].
  set (b := r_buf r ++ [v]) in *. set (r1 := with_buf _ b).
  assert (HC1 : Core w rs gs r1) by exact HC.
  assert (Hl1 : length b = S (length (r_buf r))).
  { unfold b. rewrite app_length. cbn [length]. lia. }
  destruct (Nat.eqb_spec (length b) 8) as [E|E].
  - destruct (write_or_append_bp_core w rs gs r1 b Hw HC1 (conj E Hv)) as (rs' & gs' & HC2 & Hval).
    destruct (write_or_append_bp_fields r1 b) as (Fb & Fr & _).
    exists rs', gs', []. split; [exact HC2|]. split.
    + apply pend_lt; rewrite Fr, ?Fb; [lia|].
      repeat split; [constructor | cbn [length]; lia | exists []; reflexivity].
    + rewrite app_nil_r, app_assoc, Hval, <- app_assoc. reflexivity.
  - exists rs, gs, b. split; [exact HC1|]. split; [|reflexivity].
    apply pend_lt; cbn [r1 with_buf set_rep_prev r_rep r_buf r_prev]; [exact Hk8|].
    repeat split; [exact Hv | lia | exact Hsuf].
Qed.

(** *** RLE.Write *)

Lemma rle_write_inv w c r v :
  In w widths -> Inv w c r -> val_ok w v -> N.of_nat (length c) < 2 ^ 31 ->
  Inv w (c ++ [v]) (rle_write r v).
Proof.
  intros Hw (rs & gs & p & HC & Hp & Hc) Hv H31.
  assert (Hplen : (length p <= length c)%nat).
  { rewrite Hc, !app_length. lia. }
  assert (Hv1 : forall b, Forall (val_ok w) b -> Forall (val_ok w) (b ++ [v])).
  { intros b Hb. apply Forall_app. split; [exact Hb | constructor; [exact Hv | constructor]]. }
  unfold rle_write.
  destruct (N.eqb_spec v (r_prev r)) as [Ev|Ev]; cbn [set_rep_prev r_rep].
  - destruct (N.leb_spec 8 (r_rep r + 1)) as [E8|E8].
    + (* the value joins a repeat of 8 or more: not buffered *)
      assert (Hshape : r_buf r = repeat (r_prev r) 7 /\ p = repeat (r_prev r) (N.to_nat (r_rep r))).
      { destruct (N.eq_dec (r_rep r) 7) as [E7|E7].
        - rewrite E7. apply (pend_full w); assumption.
        - destruct (pend_ge w r p) as (Hb & Hq & _); [lia | exact Hp | auto]. }
      destruct Hshape as [Hbuf Hprep].
      exists rs, gs, (p ++ [v]). split; [exact HC|]. split.
      * split; [apply Hv1, Hp|]. cbn [set_rep_prev r_rep r_buf r_prev].
        destruct (N.ltb_spec (r_rep r + 1) 8); [lia|]. split; [exact Hbuf|].
        replace (N.to_nat (r_rep r + 1)) with (S (N.to_nat (r_rep r))) by lia.
        rewrite <- repeat_snoc, <- Hprep, Ev. reflexivity.
      * rewrite Hc, <- !app_assoc. reflexivity.
    + (* still fewer than 8 repeats: buffered *)
      apply pend_lt in Hp; [|lia]. destruct Hp as (Hpv & -> & Hl & pre & Hpre).
      rewrite Hc, <- !app_assoc.
      apply rle_push_inv; [exact Hw | exact HC | exact Hl | apply Hv1, Hpv | lia |].
      exists pre. replace (N.to_nat (r_rep r + 1)) with (S (N.to_nat (r_rep r))) by lia.
      rewrite <- repeat_snoc, app_assoc, <- Hpre, Ev. reflexivity.
  - destruct (N.leb_spec 8 (r_rep r)) as [E8|E8].
    + (* a repeat of 8 or more ends: emit it as an RLE run *)
      destruct (pend_ge w r p E8 Hp) as (_ & Hprep & Hprev).
      assert (Hlp : length p = N.to_nat (r_rep r)) by (rewrite Hprep; apply repeat_length).
      destruct (write_rle_run_core w rs gs r Hw HC) as (rs' & HC' & Hval); [lia|lia|exact Hprev|].
      rewrite Hc, Hprep, !app_assoc, <- (app_assoc (runs_values rs)), <- Hval.
      apply (rle_push_inv w rs' [] (write_rle_run r) v 1 v Hw HC');
        [cbn; lia | apply (Hv1 []); constructor | lia | exists []; reflexivity].
    + apply pend_lt in Hp; [|lia]. destruct Hp as (Hpv & -> & Hl & _).
      rewrite Hc, <- !app_assoc.
      apply rle_push_inv; [exact Hw | exact HC | exact Hl | apply Hv1, Hpv | lia |].
      exists (r_buf r). reflexivity.
Qed.

Lemma rle_fold_inv w ls :
  In w widths -> forall c r,
  Inv w c r -> Forall (val_ok w) ls -> N.of_nat (length (c ++ ls)) < 2 ^ 31 ->
  Inv w (c ++ ls) (fold_left rle_write ls r).
Proof.
  intros Hw. induction ls as [|v ls IH]; intros c r HI Hv H31.
  - cbn [fold_left]. rewrite app_nil_r. exact HI.
  - cbn [fold_left]. inversion Hv as [|x l Hx Hl]; subst x l.
    replace (c ++ v :: ls) with ((c ++ [v]) ++ ls) in * by (rewrite <- app_assoc; reflexivity).
    apply IH; [|exact Hl|exact H31].
    apply rle_write_inv; [exact Hw|exact HI|exact Hx|].
    rewrite !app_length in H31. lia.
Qed.

(** *** RLE.Bytes *)

Lemma rle_flush_inv w c r :
  In w widths -> Inv w c r -> N.of_nat (length c) < 2 ^ 31 ->
  exists rs pad,
    r_out (rle_flush r) = runs_encode w rs /\ Forall (closed_ok w) rs /\
    runs_values rs = c ++ repeat 0 pad /\ (pad < 8)%nat.
Proof.
  intros Hw (rs & gs & p & HC & Hp & Hc) H31.
  assert (Hplen : (length p <= length c)%nat).
  { rewrite Hc, !app_length. lia. }
  (* every branch ends with all runs closed *)
  assert (Hfin : forall r' rs' pad, Core w rs' [] r' -> runs_values rs' = c ++ repeat 0 pad -> (pad < 8)%nat ->
            exists rs pad, r_out r' = runs_encode w rs /\ Forall (closed_ok w) rs /\
                           runs_values rs = c ++ repeat 0 pad /\ (pad < 8)%nat).
  { intros r' rs' pad HC' Hval Hpad. exists rs', pad. destruct (Core_closed _ _ _ HC') as (Ho & _ & Hr). auto. }
  unfold rle_flush.
  destruct (N.leb_spec 8 (r_rep r)) as [E8|E8].
  - destruct (pend_ge w r p E8 Hp) as (_ & Hprep & Hprev).
    assert (Hlp : length p = N.to_nat (r_rep r)) by (rewrite Hprep; apply repeat_length).
    destruct (write_rle_run_core w rs gs r Hw HC) as (rs' & HC' & Hval); [lia|lia|exact Hprev|].
    apply (Hfin _ rs' 0%nat HC'); [|lia].
    cbn [repeat]. rewrite app_nil_r, Hval, Hc, Hprep. reflexivity.
  - apply pend_lt in Hp; [|lia]. destruct Hp as (Hpv & -> & Hl & _).
    destruct (Nat.eqb_spec (length (r_buf r)) 0) as [E0|E0]; cbn [negb].
    + destruct (end_previous_bp_core w rs gs r Hw HC) as (rs' & HC' & Hval).
      apply (Hfin _ rs' 0%nat HC'); [|lia].
      apply length_zero_iff_nil in E0. rewrite E0 in Hc.
      cbn [repeat]. rewrite Hval, Hc, !app_nil_r. reflexivity.
    + set (pad := (8 - length (r_buf r))%nat).
      assert (Hg : group_ok w (r_buf r ++ repeat 0 pad)).
      { split.
        - rewrite app_length, repeat_length. unfold pad. lia.
        - apply Forall_app. split; [exact Hpv|].
          apply Forall_forall. intros x Hx. apply repeat_spec in Hx. subst x. apply pow2_pos. }
      destruct (write_or_append_bp_core w rs gs r _ Hw HC Hg) as (rs1 & gs1 & HC1 & Hval1).
      destruct (end_previous_bp_core w rs1 gs1 _ Hw HC1) as (rs' & HC' & Hval).
      apply (Hfin _ rs' pad HC'); [|unfold pad; lia].
      rewrite Hval, Hval1, Hc, <- !app_assoc. reflexivity.
Qed.

Lemma rle_encode_runs w ls :
  In w widths -> Forall (fun v => v < 2 ^ w) ls -> N.of_nat (length ls) < 2 ^ 31 ->
  exists rs pad,
    rle_encode w ls = hybrid_encode w rs /\
    Forall (closed_ok w) rs /\
    runs_values rs = ls ++ repeat 0 pad /\
    (pad < 8)%nat /\
    (length (runs_encode w rs) <= length ls + pad)%nat.
Proof.
  intros Hw Hv H31.
  assert (HI : Inv w ([] ++ ls) (fold_left rle_write ls (rle_new w))).
  { apply rle_fold_inv; [exact Hw | apply Inv_new | exact Hv | exact H31]. }
  cbn [app] in HI.
  destruct (rle_flush_inv w ls _ Hw HI H31) as (rs & pad & Hout & Hrs & Hval & Hpad).
  pose proof (closed_runs_length w rs Hw Hrs) as Hlen.
  rewrite Hval, app_length, repeat_length in Hlen.
  exists rs, pad. repeat split; try assumption.
  unfold rle_encode, rle_bytes, hybrid_encode. rewrite Hout.
  rewrite N.mod_small; [reflexivity|]. unfold nlen. lia.
Qed.

Theorem rle_encode_ok w ls :
  In w widths -> Forall (fun v => v < 2 ^ w) ls -> N.of_nat (length ls) < 2 ^ 31 ->
  exists rs pad,
    rle_encode w ls = hybrid_encode w rs /\
    Forall (wf_run w) rs /\
    runs_values rs = ls ++ repeat 0 pad /\
    (pad < 8)%nat /\
    (forall r, In r rs -> match r with RBp gs => (length gs <= 63)%nat | RRle c _ => 8 <= c end).
Proof.
  intros Hw Hv H31.
  destruct (rle_encode_runs w ls Hw Hv H31) as (rs & pad & Henc & Hrs & Hval & Hpad & _).
  exists rs, pad. repeat split; try assumption.
  - eapply Forall_impl; [|exact Hrs]. apply closed_ok_wf.
  - intros r Hr. rewrite Forall_forall in Hrs. apply (closed_ok_shape w), Hrs, Hr.
Qed.

(** at most one byte per value ([closed_runs_length]), fewer than 8 padding
    values, and the 4-byte length prefix: 11 = 4 + 7 *)
Lemma rle_encode_length_bound w ls :
  In w widths -> Forall (fun v => v < 2 ^ w) ls -> N.of_nat (length ls) < 2 ^ 31 ->
  (length (rle_encode w ls) <= length ls + 11)%nat.
Proof.
  intros Hw Hv H31.
  destruct (rle_encode_runs w ls Hw Hv H31) as (rs & pad & Henc & _ & _ & Hpad & Hlen).
  rewrite Henc. unfold hybrid_encode. rewrite app_length, le_enc_length. lia.
Qed.

Print Assumptions rle_encode_ok.
Print Assumptions rle_encode_length_bound.
