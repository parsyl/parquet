(** * RoundtripInputs: the file-level theorem of C01 with every hypothesis
    stated on the inputs (shape, records, sizes), the condition on the written
    footer being derived by PQ.FooterBounds (which has the C02 counterpart,
    [sizes_ok_written]). *)
From Coq Require Import List NArith ZArith.
From PQ Require Import Bytes Schema MetaTypes Writer Reader ReaderProofs ReaderProofs2 FooterBounds.
Import ListNotations.
Local Open Scope N_scope.

Section WithCodec.
Variable compress : Z -> bytes -> bytes.
Variable decompress : Z -> bytes -> option bytes.
Hypothesis Hcodec : forall c x, ReaderProofs.codec_ok c -> decompress c (compress c x) = Some x.
Hypothesis Hident : forall x, compress CODEC_UNCOMPRESSED x = x.

Theorem write_read_roundtrip_inputs M cfg bs :
  ReaderProofs2.cfg_ok cfg -> Forall (ReaderProofs2.batch_ok compress cfg) bs ->
  shape_names_ok (cfg_fields cfg) -> 4 <= M -> shape_names_le M (cfg_fields cfg) ->
  footer_len_bound M (columns (cfg_fields cfg)) (nlen bs) < 2 ^ 32 ->
  Forall (fun b => nlen b < 2 ^ 31) bs ->
  nlen (ReaderProofs2.data_bytes compress cfg bs) + 4 < 2 ^ 62 ->
  read_all decompress (cfg_fields cfg) (file_of_batches compress cfg bs) =
  {| o_open_ok := true;
     o_rows := Z.of_nat (length (concat bs));
     o_nexts := N.of_nat (length (concat bs));
     o_err := false; o_panic := false;
     o_recs := concat bs |}.
Proof.
  intros Hcfg Hbs Hn HM Hle Hft Hb Hd.
  pose proof (footer_ok_written compress M cfg bs Hcfg Hbs Hn HM Hle Hft Hb Hd) as Hfo.
  exact (write_read_roundtrip compress decompress Hcodec Hident cfg bs Hcfg Hbs Hfo).
Qed.
End WithCodec.

Print Assumptions write_read_roundtrip_inputs.
