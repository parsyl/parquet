(** * BitpackProofs: the C17 statements about the tables translated from
    internal/bitpack/bitpack.go, for every group.  Each is an equation between
    two [lor]-linear maps, so it follows ([BitExprProofs.units_agree_sound])
    from its instances on the vectors with one bit set in one slot; those
    instances are evaluated by [vm_compute], for the four widths at once.  The
    bit bound of each check is the [k] given to [units_agree_sound]. *)
From Coq Require Import List NArith Lia.
From PQ Require Import Bytes BitExpr BitExprProofs Bitpack.
From PQgen Require Import BitpackImpl.
Import ListNotations.
Local Open Scope N_scope.

Definition widths : list N := [1; 2; 3; 4].

Lemma widths_cases (P : N -> Prop) : P 1 -> P 2 -> P 3 -> P 4 -> forall w, In w widths -> P w.
Proof.
  intros H1 H2 H3 H4 w Hw. cbn in Hw.
  destruct Hw as [<-|[<-|[<-|[<-|[]]]]]; assumption.
Qed.

Lemma pack_length w vs : length (pack w vs) = length (pack_table w).
Proof. unfold pack. apply eval_table_length. Qed.

Lemma unpack_length w bs : length (unpack w bs) = length (unpack_table w).
Proof. unfold unpack. apply eval_table_length. Qed.

Lemma pack_table_length w : In w widths -> length (pack_table w) = N.to_nat w.
Proof. revert w. apply widths_cases; reflexivity. Qed.

Lemma unpack_table_length w : In w widths -> length (unpack_table w) = 8%nat.
Proof. revert w. apply widths_cases; reflexivity. Qed.

Lemma linear_pack n w : linear n (pack w).
Proof. apply linear_eval_table. Qed.

Lemma linear_unpack n w : linear n (unpack w).
Proof. apply linear_eval_table. Qed.

Lemma unpack_pack w vs :
  In w widths -> length vs = 8%nat -> Forall (fun v => v < 2 ^ w) vs ->
  unpack w (pack w vs) = vs.
Proof.
  intros Hw. revert vs. apply (units_agree_sound 8 w (fun v => unpack w (pack w v)) (fun v => v)).
  - exact (linear_compose 8 _ _ _ (linear_pack 8 w) (linear_unpack _ w) (fun a _ => pack_length w a)).
  - apply linear_id.
  - (* the four widths as one [forallb], then evaluated *)
    revert w Hw. apply forallb_forall. vm_compute. reflexivity.
Qed.

Lemma pack_unpack_eq w bs :
  In w widths -> length bs = N.to_nat w -> wf_bytes bs -> pack w (unpack w bs) = bs.
Proof.
  intros Hw. revert bs. apply (units_agree_sound (N.to_nat w) 8 (fun v => pack w (unpack w v)) (fun v => v)).
  - exact (linear_compose _ _ _ _ (linear_unpack _ w) (linear_pack _ w) (fun a _ => unpack_length w a)).
  - apply linear_id.
  - revert w Hw. apply forallb_forall. vm_compute. reflexivity.
Qed.

Lemma unpack_masked w bs :
  In w widths -> length bs = N.to_nat w -> wf_bytes bs ->
  map (fun v => N.land v (N.ones w)) (unpack w bs) = unpack w bs.
Proof.
  intros Hw. revert bs.
  apply (units_agree_sound (N.to_nat w) 8 (fun v => map (fun v => N.land v (N.ones w)) (unpack w v)) (unpack w)).
  - exact (linear_compose _ _ _ _ (linear_unpack _ w) (linear_mask _ _) (fun a _ => unpack_length w a)).
  - apply linear_unpack.
  - revert w Hw. apply forallb_forall. vm_compute. reflexivity.
Qed.

Lemma unpack_bounded w bs :
  In w widths -> length bs = N.to_nat w -> wf_bytes bs ->
  Forall (fun v => v < 2 ^ w) (unpack w bs).
Proof.
  intros Hw Hl Hb. rewrite <- (unpack_masked w bs Hw Hl Hb), Forall_map.
  apply Forall_forall. intros v _. rewrite N.land_ones. apply N.mod_lt, N.pow_nonzero. lia.
Qed.

(** ** The packed bytes are the specification's layout *)

Lemma lor_mod_pow2 x y k : N.lor x y mod 2 ^ k = N.lor (x mod 2 ^ k) (y mod 2 ^ k).
Proof. rewrite <- !N.land_ones. apply N.land_lor_distr_l. Qed.

Lemma lor_div_pow2 x y k : N.lor x y / 2 ^ k = N.lor (x / 2 ^ k) (y / 2 ^ k).
Proof. rewrite <- !N.shiftr_div_pow2. apply N.shiftr_lor. Qed.

Lemma le_enc_lor k x y : le_enc k (N.lor x y) = join (le_enc k x) (le_enc k y).
Proof.
  revert x y; induction k as [|k IH]; intros x y; cbn [le_enc join]; [reflexivity|].
  change 256 with (2 ^ 8). rewrite lor_mod_pow2, lor_div_pow2, IH. reflexivity.
Qed.

Lemma spec_word_join w i a b :
  spec_word w i (join a b) = N.lor (spec_word w i a) (spec_word w i b).
Proof.
  revert i b; induction a as [|x a IH]; intros i [|y b]; cbn [join spec_word];
    rewrite ?N.lor_0_l, ?N.lor_0_r; try reflexivity.
  rewrite IH, lor_mod_pow2, N.shiftl_lor. apply lor_lor.
Qed.

Lemma linear_spec_pack n w : linear n (spec_pack w).
Proof. intros a b _ _. unfold spec_pack. rewrite spec_word_join. apply le_enc_lor. Qed.

(** [pack] agrees with the layout on all bytes, not only on [w]-bit values:
    both sides look at the low [w] bits only. *)
Lemma pack_spec_bytes w vs :
  In w widths -> length vs = 8%nat -> wf_bytes vs -> pack w vs = spec_pack w vs.
Proof.
  intros Hw. revert vs. apply (units_agree_sound 8 8 (pack w) (spec_pack w)).
  - apply linear_pack.
  - apply linear_spec_pack.
  - revert w Hw. apply forallb_forall. vm_compute. reflexivity.
Qed.

Lemma pack_spec w vs :
  In w widths -> length vs = 8%nat -> Forall (fun v => v < 2 ^ w) vs ->
  pack w vs = spec_pack w vs.
Proof.
  intros Hw Hl Hv. apply pack_spec_bytes; [assumption..|].
  revert Hv. apply Forall_impl. intros v. revert w Hw.
  apply (widths_cases (fun w => v < 2 ^ w -> is_byte v)); unfold is_byte; cbn; lia.
Qed.

Lemma spec_word_mod w i vs : spec_word w i (map (fun v => v mod 2 ^ w) vs) = spec_word w i vs.
Proof.
  revert i; induction vs as [|v r IH]; intros i; cbn [map spec_word]; [reflexivity|].
  rewrite IH, N.mod_mod by (apply N.pow_nonzero; lia). reflexivity.
Qed.

Lemma pack_masks w vs :
  In w widths -> length vs = 8%nat -> wf_bytes vs ->
  pack w vs = pack w (map (fun v => v mod 2 ^ w) vs).
Proof.
  intros Hw Hl Hv. rewrite !pack_spec_bytes; try assumption.
  - unfold spec_pack. rewrite spec_word_mod. reflexivity.
  - rewrite map_length. assumption.
  - apply Forall_map. revert Hv. apply Forall_impl. intros v Hb.
    apply N.le_lt_trans with v; [apply N.mod_le, N.pow_nonzero; lia | assumption].
Qed.
