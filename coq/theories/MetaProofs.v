(** * MetaProofs: the metadata records survive the trip through the thrift
    compact protocol, and byte strings produced by the real library
    (apache/thrift v0.18.1 through /repo/schema/parquet.go) agree with the
    model in both directions. *)
From Coq Require Import List NArith ZArith Lia Bool.
From Coq Require Import ZifyN ZifyNat ZifyBool.
From PQ Require Import Bytes Varint Thrift ThriftProofs MetaTypes Meta ConformantThrift.
Import ListNotations.
Local Open Scope N_scope.

(** ** Field lists built by [mk_fields] *)

Fixpoint alookup (id : N) (l : list (N * option tval)) : option tval :=
  match l with
  | [] => None
  | (i, ov) :: r => if i =? id then ov else alookup id r
  end.

Fixpoint ids_inc (last : N) (l : list (N * option tval)) : bool :=
  match l with
  | [] => true
  | (i, _) :: r => (last <? i) && (i <=? max_field_id) && ids_inc i r
  end.

Lemma ids_inc_cons last i ov r :
  ids_inc last ((i, ov) :: r) = true -> last < i /\ i <= max_field_id /\ ids_inc i r = true.
Proof.
  cbn [ids_inc]. intros [[Hlt%N.ltb_lt Hmax%N.leb_le]%andb_prop Hr]%andb_prop. auto.
Qed.

Lemma fget_mk l : forall last id,
  ids_inc last l = true ->
  fget id (mk_fields l) = alookup id l /\ (id <= last -> alookup id l = None).
Proof.
  induction l as [|[i ov] r IH]; intros last id Hinc; [split; reflexivity|].
  apply ids_inc_cons in Hinc. destruct Hinc as (Hlt & _ & Hr).
  destruct (IH i id Hr) as [Hget Hnone]. cbn [alookup].
  destruct (N.eqb_spec i id) as [He|Hne].
  - split; [|lia]. rewrite Hnone in Hget by lia.
    destruct ov as [v|]; cbn [mk_fields fget]; [|exact Hget].
    rewrite Hget, He, N.eqb_refl. reflexivity.
  - split; [|intros Hle; apply Hnone; lia].
    destruct ov as [v|]; cbn [mk_fields fget]; [|exact Hget].
    rewrite Hget. destruct (alookup id r) as [w|]; [reflexivity|].
    destruct (N.eqb_spec i id) as [He|_]; [contradiction | reflexivity].
Qed.

(** one step of a reader chain [a <- req/opt conv id fs;; k a] on a built list *)
Lemma req_mk {A B} (conv : tval -> option A) id l v a (k : A -> option B) x :
  ids_inc 0 l = true -> alookup id l = Some v -> conv v = Some a -> k a = Some x ->
  (a <- req conv id (mk_fields l);; k a) = Some x.
Proof.
  intros Hinc Hl Hc Hk. unfold req. rewrite (proj1 (fget_mk l 0 id Hinc)), Hl, Hc. exact Hk.
Qed.

Lemma opt_mk {A B} (conv : tval -> option A) (f : A -> tval) id l o (k : option A -> option B) x :
  ids_inc 0 l = true -> alookup id l = option_map f o ->
  (forall a, conv (f a) = Some a) -> k o = Some x ->
  (o <- opt conv id (mk_fields l);; k o) = Some x.
Proof.
  intros Hinc Hl Hc Hk. unfold opt. rewrite (proj1 (fget_mk l 0 id Hinc)), Hl.
  destruct o as [a|]; cbn [option_map]; [rewrite Hc|]; exact Hk.
Qed.

Lemma as_list_map {A} (conv : tval -> option A) (f : A -> tval) elt l :
  (forall a, conv (f a) = Some a) -> as_list conv (t_list elt f l) = Some l.
Proof.
  intros Hc. unfold as_list, t_list. induction l as [|x r IH]; cbn [map map_opt]; [reflexivity|].
  rewrite Hc, IH. reflexivity.
Qed.

(** ** Well-formedness of field lists built by [mk_fields] *)

Definition ofield_wf (p : N * option tval) : Prop :=
  match snd p with Some v => wf_tval v = true | None => True end.

Lemma wf_fields_from_mono fs last last' :
  wf_fields_from last' fs = true -> last <= last' -> wf_fields_from last fs = true.
Proof.
  destruct fs as [|[id x] r]; cbn [wf_fields_from]; [reflexivity|].
  intros [[[Hlt%N.ltb_lt ->]%andb_prop ->]%andb_prop ->]%andb_prop Hle.
  destruct (N.ltb_spec last id) as [_|Hge]; [reflexivity | lia].
Qed.

Lemma wf_mk l : forall last,
  ids_inc last l = true -> Forall ofield_wf l -> wf_fields_from last (mk_fields l) = true.
Proof.
  induction l as [|[i ov] r IH]; intros last Hinc Hall; [reflexivity|].
  apply ids_inc_cons in Hinc. destruct Hinc as (Hlt & Hmax & Hr).
  inversion Hall as [|p q Hp Hq]; subst p q.
  specialize (IH i Hr Hq).
  destruct ov as [v|]; cbn [mk_fields].
  - cbn [wf_fields_from]. unfold ofield_wf in Hp. cbn [snd] in Hp. rewrite Hp, IH.
    apply N.ltb_lt in Hlt. apply N.leb_le in Hmax. rewrite Hlt, Hmax. reflexivity.
  - apply (wf_fields_from_mono _ last i IH). lia.
Qed.

Lemma wf_fields_mk l :
  ids_inc 0 l = true -> Forall ofield_wf l -> wf_fields (mk_fields l) = true.
Proof. intros Hinc Hall. unfold wf_fields. apply wf_mk; assumption. Qed.

Lemma ofield_req id v : wf_tval v = true -> ofield_wf (id, Some v).
Proof. intros H. exact H. Qed.

Lemma ofield_opt {A} id (f : A -> tval) (ok : A -> bool) o :
  opt_ok ok o = true -> (forall a, ok a = true -> wf_tval (f a) = true) ->
  ofield_wf (id, option_map f o).
Proof.
  intros Ho Hf. unfold ofield_wf. destruct o as [a|]; cbn [snd option_map]; [|exact I].
  apply Hf. exact Ho.
Qed.

Lemma ofield_opt_true {A} id (f : A -> tval) o :
  (forall a, wf_tval (f a) = true) -> ofield_wf (id, option_map f o).
Proof.
  intros Hf. unfold ofield_wf. destruct o as [a|]; cbn [snd option_map]; [apply Hf | exact I].
Qed.

Lemma wf_list {A} (ok : A -> bool) (f : A -> tval) elt l :
  list_ok ok l = true ->
  (forall a, ok a = true -> wf_tval (f a) = true) ->
  (forall a, elt_matches elt (f a) = true) ->
  (1 <=? elt) && (elt <=? 12) = true ->
  wf_tval (t_list elt f l) = true.
Proof.
  intros Hl Hf Hm He. unfold t_list. rewrite wf_tval_list, He.
  unfold list_ok in Hl. apply andb_prop in Hl as [Hlen Hall].
  unfold nlen in Hlen |- *. rewrite map_length, Hlen. cbn [andb].
  rewrite forallb_forall in Hall |- *. intros x Hx.
  apply in_map_iff in Hx. destruct Hx as (a & Ha & Hin). subst x.
  rewrite Hm, Hf by (apply Hall; exact Hin). reflexivity.
Qed.

Lemma wf_struct fs : wf_fields fs = true -> wf_tval (TStruct fs) = true.
Proof. intros H. rewrite wf_tval_struct. exact H. Qed.

Create HintDb meta_rt.
Create HintDb meta_wf.

Ltac split_andb :=
  repeat match goal with
         | H : (_ && _) = true |- _ => apply andb_prop in H; destruct H
         end.

(** side condition [conv (f a) = Some a] (possibly under [forall a]) *)
Ltac rt_side :=
  intros; cbv beta; unfold t_key_values, t_statistics;
  first [ solve [auto with meta_rt nocore]
        | reflexivity
        | apply as_list_map; intros; cbv beta;
          first [ solve [auto with meta_rt nocore] | reflexivity ] ].

(** goal [X_of_fields (mk_fields l) = Some x]: the ids of [l] increase, so
    every step of the reader chain finds its field by [alookup] *)
Ltac rt_fields :=
  match goal with
  | |- context [mk_fields ?l] =>
      let fl := fresh "fl" in let Hinc := fresh "Hinc" in
      set (fl := l); assert (Hinc : ids_inc 0 fl = true) by reflexivity;
      repeat lazymatch goal with
             | |- match req _ _ _ with _ => _ end = _ =>
                 eapply req_mk; [exact Hinc | reflexivity | rt_side | cbv beta]
             | |- match opt _ _ _ with _ => _ end = _ =>
                 eapply opt_mk; [exact Hinc | reflexivity | rt_side | cbv beta]
             end
  end.

(** goal [wf_tval v = true] from the range hypotheses in the context *)
Ltac wf_val :=
  cbv beta; unfold t_key_values, t_statistics;
  first [ assumption
        | solve [auto with meta_wf nocore]
        | eapply wf_list;
          [ eassumption
          | let a := fresh "a" in let Ha := fresh "Ha" in intros a Ha; wf_val
          | intro; reflexivity
          | reflexivity ] ].

Ltac wf_field :=
  unfold t_i32, t_i64, t_bin;
  first [ apply ofield_req; wf_val
        | eapply ofield_opt;
          [ eassumption
          | let a := fresh "a" in let Ha := fresh "Ha" in intros a Ha; wf_val ]
        | apply ofield_opt_true; intro; reflexivity ].

Ltac wf_record :=
  apply wf_fields_mk; [reflexivity|];
  repeat (apply Forall_cons; [wf_field|]); apply Forall_nil.

(** ** The records, innermost first: each lemma goes into [meta_rt] / [meta_wf],
    where [rt_side] and [wf_val] find it for the records that contain it *)

Lemma statistics_conv s : as_struct statistics_of_fields (TStruct (statistics_to_fields s)) = Some s.
Proof.
  cbn [as_struct]. unfold statistics_of_fields, statistics_to_fields. rt_fields.
  destruct s; reflexivity.
Qed.
#[local] Hint Resolve statistics_conv : meta_rt.

Lemma statistics_wfv s : statistics_ok s = true -> wf_tval (TStruct (statistics_to_fields s)) = true.
Proof.
  intros H. unfold statistics_ok in H. split_andb.
  apply wf_struct. unfold statistics_to_fields. wf_record.
Qed.
#[local] Hint Resolve statistics_wfv : meta_wf.

Lemma data_page_header_conv d :
  as_struct data_page_header_of_fields (TStruct (data_page_header_to_fields d)) = Some d.
Proof.
  cbn [as_struct]. unfold data_page_header_of_fields, data_page_header_to_fields. rt_fields.
  destruct d; reflexivity.
Qed.
#[local] Hint Resolve data_page_header_conv : meta_rt.

Lemma data_page_header_wfv d :
  data_page_header_ok d = true -> wf_tval (TStruct (data_page_header_to_fields d)) = true.
Proof.
  intros H. unfold data_page_header_ok in H. split_andb.
  apply wf_struct. unfold data_page_header_to_fields. wf_record.
Qed.
#[local] Hint Resolve data_page_header_wfv : meta_wf.

Lemma dictionary_page_header_conv d :
  as_struct dictionary_page_header_of_fields (TStruct (dictionary_page_header_to_fields d)) = Some d.
Proof.
  cbn [as_struct]. unfold dictionary_page_header_of_fields, dictionary_page_header_to_fields. rt_fields.
  destruct d; reflexivity.
Qed.
#[local] Hint Resolve dictionary_page_header_conv : meta_rt.

Lemma dictionary_page_header_wfv d :
  dictionary_page_header_ok d = true ->
  wf_tval (TStruct (dictionary_page_header_to_fields d)) = true.
Proof.
  intros H. unfold dictionary_page_header_ok in H. split_andb.
  apply wf_struct. unfold dictionary_page_header_to_fields. wf_record.
Qed.
#[local] Hint Resolve dictionary_page_header_wfv : meta_wf.

Lemma data_page_header_v2_conv d :
  as_struct data_page_header_v2_of_fields (TStruct (data_page_header_v2_to_fields d)) = Some d.
Proof.
  cbn [as_struct]. unfold data_page_header_v2_of_fields, data_page_header_v2_to_fields. rt_fields.
  destruct d; reflexivity.
Qed.
#[local] Hint Resolve data_page_header_v2_conv : meta_rt.

Lemma data_page_header_v2_wfv d :
  data_page_header_v2_ok d = true ->
  wf_tval (TStruct (data_page_header_v2_to_fields d)) = true.
Proof.
  intros H. unfold data_page_header_v2_ok in H. split_andb.
  apply wf_struct. unfold data_page_header_v2_to_fields. wf_record.
Qed.
#[local] Hint Resolve data_page_header_v2_wfv : meta_wf.

Lemma index_page_header_conv u :
  as_struct index_page_header_of_fields (TStruct (index_page_header_to_fields u)) = Some u.
Proof. destruct u. reflexivity. Qed.
#[local] Hint Resolve index_page_header_conv : meta_rt.

Lemma page_header_rt p : page_header_of_fields (page_header_to_fields p) = Some p.
Proof.
  unfold page_header_of_fields, page_header_to_fields. rt_fields.
  destruct p; reflexivity.
Qed.

Lemma page_header_wf p : page_header_ok p = true -> wf_fields (page_header_to_fields p) = true.
Proof.
  intros H. unfold page_header_ok in H. split_andb.
  unfold page_header_to_fields. wf_record.
Qed.

Lemma schema_element_conv s :
  as_struct schema_element_of_fields (TStruct (schema_element_to_fields s)) = Some s.
Proof.
  cbn [as_struct]. unfold schema_element_of_fields, schema_element_to_fields. rt_fields.
  destruct s; reflexivity.
Qed.
#[local] Hint Resolve schema_element_conv : meta_rt.

Lemma schema_element_wfv s :
  schema_element_ok s = true -> wf_tval (TStruct (schema_element_to_fields s)) = true.
Proof.
  intros H. unfold schema_element_ok in H. split_andb.
  apply wf_struct. unfold schema_element_to_fields. wf_record.
Qed.
#[local] Hint Resolve schema_element_wfv : meta_wf.

Lemma key_value_conv k :
  as_struct key_value_of_fields (TStruct (key_value_to_fields k)) = Some k.
Proof.
  cbn [as_struct]. unfold key_value_of_fields, key_value_to_fields. rt_fields.
  destruct k; reflexivity.
Qed.
#[local] Hint Resolve key_value_conv : meta_rt.

Lemma key_value_wfv k :
  key_value_ok k = true -> wf_tval (TStruct (key_value_to_fields k)) = true.
Proof.
  intros H. unfold key_value_ok in H. split_andb.
  apply wf_struct. unfold key_value_to_fields. wf_record.
Qed.
#[local] Hint Resolve key_value_wfv : meta_wf.

Lemma page_encoding_stats_conv p :
  as_struct page_encoding_stats_of_fields (TStruct (page_encoding_stats_to_fields p)) = Some p.
Proof.
  cbn [as_struct]. unfold page_encoding_stats_of_fields, page_encoding_stats_to_fields. rt_fields.
  destruct p; reflexivity.
Qed.
#[local] Hint Resolve page_encoding_stats_conv : meta_rt.

Lemma page_encoding_stats_wfv p :
  page_encoding_stats_ok p = true ->
  wf_tval (TStruct (page_encoding_stats_to_fields p)) = true.
Proof.
  intros H. unfold page_encoding_stats_ok in H. split_andb.
  apply wf_struct. unfold page_encoding_stats_to_fields. wf_record.
Qed.
#[local] Hint Resolve page_encoding_stats_wfv : meta_wf.

Lemma column_meta_conv c :
  as_struct column_meta_of_fields (TStruct (column_meta_to_fields c)) = Some c.
Proof.
  cbn [as_struct]. unfold column_meta_of_fields, column_meta_to_fields. rt_fields.
  destruct c; reflexivity.
Qed.
#[local] Hint Resolve column_meta_conv : meta_rt.

Lemma column_meta_wfv c :
  column_meta_ok c = true -> wf_tval (TStruct (column_meta_to_fields c)) = true.
Proof.
  intros H. unfold column_meta_ok in H. split_andb.
  apply wf_struct. unfold column_meta_to_fields. wf_record.
Qed.
#[local] Hint Resolve column_meta_wfv : meta_wf.

Lemma column_chunk_conv c :
  as_struct column_chunk_of_fields (TStruct (column_chunk_to_fields c)) = Some c.
Proof.
  cbn [as_struct]. unfold column_chunk_of_fields, column_chunk_to_fields. rt_fields.
  destruct c; reflexivity.
Qed.
#[local] Hint Resolve column_chunk_conv : meta_rt.

Lemma column_chunk_wfv c :
  column_chunk_ok c = true -> wf_tval (TStruct (column_chunk_to_fields c)) = true.
Proof.
  intros H. unfold column_chunk_ok in H. split_andb.
  apply wf_struct. unfold column_chunk_to_fields. wf_record.
Qed.
#[local] Hint Resolve column_chunk_wfv : meta_wf.

Lemma row_group_conv r :
  as_struct row_group_of_fields (TStruct (row_group_to_fields r)) = Some r.
Proof.
  cbn [as_struct]. unfold row_group_of_fields, row_group_to_fields. rt_fields.
  destruct r; reflexivity.
Qed.
#[local] Hint Resolve row_group_conv : meta_rt.

Lemma row_group_wfv r :
  row_group_ok r = true -> wf_tval (TStruct (row_group_to_fields r)) = true.
Proof.
  intros H. unfold row_group_ok in H. split_andb.
  apply wf_struct. unfold row_group_to_fields. wf_record.
Qed.
#[local] Hint Resolve row_group_wfv : meta_wf.

Lemma file_meta_rt m : file_meta_of_fields (file_meta_to_fields m) = Some m.
Proof.
  unfold file_meta_of_fields, file_meta_to_fields. rt_fields.
  destruct m; reflexivity.
Qed.

Lemma file_meta_wf m : file_meta_ok m = true -> wf_fields (file_meta_to_fields m) = true.
Proof.
  intros H. unfold file_meta_ok in H. split_andb.
  unfold file_meta_to_fields. wf_record.
Qed.

Theorem dec_enc_page_header ph rest :
  page_header_ok ph = true ->
  dec_page_header (enc_page_header ph ++ rest) = Some (ph, rest).
Proof.
  intros H. unfold dec_page_header, enc_page_header.
  rewrite tdec_tenc_default by (apply page_header_wf; exact H).
  rewrite page_header_rt. reflexivity.
Qed.

Theorem enc_page_header_wf_bytes ph :
  page_header_ok ph = true -> wf_bytes (enc_page_header ph).
Proof.
  intros H. unfold enc_page_header. apply tenc_struct_wf_bytes, page_header_wf, H.
Qed.

Theorem dec_enc_file_meta fm rest :
  file_meta_ok fm = true ->
  dec_file_meta (enc_file_meta fm ++ rest) = Some (fm, rest).
Proof.
  intros H. unfold dec_file_meta, enc_file_meta.
  rewrite tdec_tenc_default by (apply file_meta_wf; exact H).
  rewrite file_meta_rt. reflexivity.
Qed.

Theorem enc_file_meta_wf_bytes fm :
  file_meta_ok fm = true -> wf_bytes (enc_file_meta fm).
Proof.
  intros H. unfold enc_file_meta. apply tenc_struct_wf_bytes, file_meta_wf, H.
Qed.

(** ** Byte strings produced by the library

    Every [*_bytes] constant below is the output of the real library
    ([thrift.NewTSerializer] with [thrift.NewTCompactProtocolFactory], exactly
    as /repo/parquet.go sets it up, apache/thrift v0.18.1, on a
    [sch.PageHeader] / [sch.FileMetaData] value of /repo/schema) for the Go
    value that the record above it transcribes.  The model encoder produces the
    same bytes and the model decoder reads them back. *)

Local Open Scope Z_scope.

(** DATA_PAGE; extreme i32s; crc -1; statistics with null_count, an empty but non nil
    max_value and a min_value with bytes >= 0x80 *)
Definition ex_ph2 : page_header :=
  {| ph_type := 0; ph_uncompressed_size := 2147483647; ph_compressed_size := (-2147483648);
  ph_crc := (Some (-1)); ph_data := (Some {| dph_num_values := 300; dph_encoding := 2;
  dph_def_encoding := 3; dph_rep_encoding := 4; dph_statistics := (Some {| st_max := None;
  st_min := None; st_null_count := (Some 3); st_distinct_count := None; st_max_value := (Some
  []%N); st_min_value := (Some [0; 255; 128; 1]%N) |}) |}); ph_index := None; ph_dict := None;
  ph_data_v2 := None |}.
Definition ex_ph2_bytes : bytes :=
  [21; 0; 21; 254; 255; 255; 255; 15; 21; 255; 255; 255; 255; 15; 21; 1; 28; 21; 216; 4; 21; 4;
  21; 6; 21; 8; 28; 54; 6; 40; 0; 24; 4; 0; 255; 128; 1; 0; 0; 0]%N.
Example ex_ph2_enc : enc_page_header ex_ph2 = ex_ph2_bytes.
Proof. vm_compute. reflexivity. Qed.
Example ex_ph2_ok : page_header_ok ex_ph2 = true.
Proof. vm_compute. reflexivity. Qed.
Example ex_ph2_dec : dec_page_header (ex_ph2_bytes ++ [7; 7]%N) = Some (ex_ph2, [7; 7]%N).
Proof. rewrite <- ex_ph2_enc. apply dec_enc_page_header, ex_ph2_ok. Qed.

(** statistics with only min_value (field 6 first: delta 6) *)
Definition ex_ph3 : page_header :=
  {| ph_type := 0; ph_uncompressed_size := 0; ph_compressed_size := 0; ph_crc := None; ph_data
  := (Some {| dph_num_values := 0; dph_encoding := 0; dph_def_encoding := 0; dph_rep_encoding :=
  0; dph_statistics := (Some {| st_max := None; st_min := None; st_null_count := None;
  st_distinct_count := None; st_max_value := None; st_min_value := (Some [97]%N) |}) |});
  ph_index := None; ph_dict := None; ph_data_v2 := None |}.
Definition ex_ph3_bytes : bytes :=
  [21; 0; 21; 0; 21; 0; 44; 21; 0; 21; 0; 21; 0; 21; 0; 28; 104; 1; 97; 0; 0; 0]%N.
Example ex_ph3_enc : enc_page_header ex_ph3 = ex_ph3_bytes.
Proof. vm_compute. reflexivity. Qed.
Example ex_ph3_ok : page_header_ok ex_ph3 = true.
Proof. vm_compute. reflexivity. Qed.
Example ex_ph3_dec : dec_page_header (ex_ph3_bytes ++ [7; 7]%N) = Some (ex_ph3, [7; 7]%N).
Proof. rewrite <- ex_ph3_enc. apply dec_enc_page_header, ex_ph3_ok. Qed.

(** DICTIONARY_PAGE, negative num_values, is_sorted = true (folded into the field header) *)
Definition ex_ph7 : page_header :=
  {| ph_type := 2; ph_uncompressed_size := 4096; ph_compressed_size := 1000; ph_crc := None;
  ph_data := None; ph_index := None; ph_dict := (Some {| dict_num_values := (-5); dict_encoding
  := 2; dict_is_sorted := (Some true) |}); ph_data_v2 := None |}.
Definition ex_ph7_bytes : bytes :=
  [21; 4; 21; 128; 64; 21; 208; 15; 76; 21; 9; 21; 4; 17; 0; 0]%N.
Example ex_ph7_enc : enc_page_header ex_ph7 = ex_ph7_bytes.
Proof. vm_compute. reflexivity. Qed.
Example ex_ph7_ok : page_header_ok ex_ph7 = true.
Proof. vm_compute. reflexivity. Qed.
Example ex_ph7_dec : dec_page_header (ex_ph7_bytes ++ [7; 7]%N) = Some (ex_ph7, [7; 7]%N).
Proof. rewrite <- ex_ph7_enc. apply dec_enc_page_header, ex_ph7_ok. Qed.

Definition ex_ph8 : page_header :=
  {| ph_type := 2; ph_uncompressed_size := 4096; ph_compressed_size := 1000; ph_crc := (Some 0);
  ph_data := None; ph_index := None; ph_dict := (Some {| dict_num_values := 1073741824;
  dict_encoding := 2; dict_is_sorted := (Some false) |}); ph_data_v2 := None |}.
Definition ex_ph8_bytes : bytes :=
  [21; 4; 21; 128; 64; 21; 208; 15; 21; 0; 60; 21; 128; 128; 128; 128; 8; 21; 4; 18; 0; 0]%N.
Example ex_ph8_enc : enc_page_header ex_ph8 = ex_ph8_bytes.
Proof. vm_compute. reflexivity. Qed.
Example ex_ph8_ok : page_header_ok ex_ph8 = true.
Proof. vm_compute. reflexivity. Qed.
Example ex_ph8_dec : dec_page_header (ex_ph8_bytes ++ [7; 7]%N) = Some (ex_ph8, [7; 7]%N).
Proof. rewrite <- ex_ph8_enc. apply dec_enc_page_header, ex_ph8_ok. Qed.

Definition ex_ph9 : page_header :=
  {| ph_type := 1; ph_uncompressed_size := 5; ph_compressed_size := 5; ph_crc := None; ph_data
  := None; ph_index := (Some tt); ph_dict := None; ph_data_v2 := None |}.
Definition ex_ph9_bytes : bytes :=
  [21; 2; 21; 10; 21; 10; 60; 0; 0]%N.
Example ex_ph9_enc : enc_page_header ex_ph9 = ex_ph9_bytes.
Proof. vm_compute. reflexivity. Qed.
Example ex_ph9_ok : page_header_ok ex_ph9 = true.
Proof. vm_compute. reflexivity. Qed.
Example ex_ph9_dec : dec_page_header (ex_ph9_bytes ++ [7; 7]%N) = Some (ex_ph9, [7; 7]%N).
Proof. rewrite <- ex_ph9_enc. apply dec_enc_page_header, ex_ph9_ok. Qed.

(** DATA_PAGE_V2, IsCompressed = true (the default, not written), statistics with UTF-8 bytes *)
Definition ex_ph10 : page_header :=
  {| ph_type := 3; ph_uncompressed_size := 123456; ph_compressed_size := 65432; ph_crc := None;
  ph_data := None; ph_index := None; ph_dict := None; ph_data_v2 := (Some {| v2_num_values :=
  1000; v2_num_nulls := 10; v2_num_rows := 990; v2_encoding := 8; v2_def_len := 40; v2_rep_len
  := 0; v2_is_compressed := None; v2_statistics := (Some {| st_max := None; st_min := None;
  st_null_count := (Some 10); st_distinct_count := None; st_max_value := (Some [122; 122; 195;
  169]%N); st_min_value := (Some []%N) |}) |}) |}.
Definition ex_ph10_bytes : bytes :=
  [21; 6; 21; 128; 137; 15; 21; 176; 254; 7; 92; 21; 208; 15; 21; 20; 21; 188; 15; 21; 16; 21;
  80; 21; 0; 44; 54; 20; 40; 4; 122; 122; 195; 169; 24; 0; 0; 0; 0]%N.
Example ex_ph10_enc : enc_page_header ex_ph10 = ex_ph10_bytes.
Proof. vm_compute. reflexivity. Qed.
Example ex_ph10_ok : page_header_ok ex_ph10 = true.
Proof. vm_compute. reflexivity. Qed.
Example ex_ph10_dec : dec_page_header (ex_ph10_bytes ++ [7; 7]%N) = Some (ex_ph10, [7; 7]%N).
Proof. rewrite <- ex_ph10_enc. apply dec_enc_page_header, ex_ph10_ok. Qed.

(** DATA_PAGE_V2, IsCompressed = false (written), varint boundaries 16383 / 16384 *)
Definition ex_ph11 : page_header :=
  {| ph_type := 3; ph_uncompressed_size := 1; ph_compressed_size := 2; ph_crc := None; ph_data
  := None; ph_index := None; ph_dict := None; ph_data_v2 := (Some {| v2_num_values := (-1);
  v2_num_nulls := (-64); v2_num_rows := 64; v2_encoding := 0; v2_def_len := 16383; v2_rep_len :=
  16384; v2_is_compressed := (Some false); v2_statistics := None |}) |}.
Definition ex_ph11_bytes : bytes :=
  [21; 6; 21; 2; 21; 4; 92; 21; 1; 21; 127; 21; 128; 1; 21; 0; 21; 254; 255; 1; 21; 128; 128; 2;
  18; 0; 0]%N.
Example ex_ph11_enc : enc_page_header ex_ph11 = ex_ph11_bytes.
Proof. vm_compute. reflexivity. Qed.
Example ex_ph11_ok : page_header_ok ex_ph11 = true.
Proof. vm_compute. reflexivity. Qed.
Example ex_ph11_dec : dec_page_header (ex_ph11_bytes ++ [7; 7]%N) = Some (ex_ph11, [7; 7]%N).
Proof. rewrite <- ex_ph11_enc. apply dec_enc_page_header, ex_ph11_ok. Qed.

Definition ex_ph12 : page_header :=
  {| ph_type := 3; ph_uncompressed_size := (-1); ph_compressed_size := (-2); ph_crc := (Some
  (-2147483648)); ph_data := (Some {| dph_num_values := 1; dph_encoding := 2; dph_def_encoding
  := 3; dph_rep_encoding := 4; dph_statistics := (Some {| st_max := None; st_min := (Some
  [9]%N); st_null_count := None; st_distinct_count := None; st_max_value := None; st_min_value
  := None |}) |}); ph_index := (Some tt); ph_dict := (Some {| dict_num_values := 2;
  dict_encoding := 2; dict_is_sorted := (Some true) |}); ph_data_v2 := (Some {| v2_num_values :=
  1; v2_num_nulls := 2; v2_num_rows := 3; v2_encoding := 4; v2_def_len := 5; v2_rep_len := 6;
  v2_is_compressed := (Some false); v2_statistics := (Some {| st_max := None; st_min := None;
  st_null_count := None; st_distinct_count := (Some 1); st_max_value := None; st_min_value :=
  None |}) |}) |}.
Definition ex_ph12_bytes : bytes :=
  [21; 6; 21; 1; 21; 3; 21; 255; 255; 255; 255; 15; 28; 21; 2; 21; 4; 21; 6; 21; 8; 28; 40; 1;
  9; 0; 0; 28; 0; 28; 21; 4; 21; 4; 17; 0; 28; 21; 2; 21; 4; 21; 6; 21; 8; 21; 10; 21; 12; 18;
  28; 70; 2; 0; 0; 0]%N.
Example ex_ph12_enc : enc_page_header ex_ph12 = ex_ph12_bytes.
Proof. vm_compute. reflexivity. Qed.
Example ex_ph12_ok : page_header_ok ex_ph12 = true.
Proof. vm_compute. reflexivity. Qed.
Example ex_ph12_dec : dec_page_header (ex_ph12_bytes ++ [7; 7]%N) = Some (ex_ph12, [7; 7]%N).
Proof. rewrite <- ex_ph12_enc. apply dec_enc_page_header, ex_ph12_ok. Qed.

(** nil schema / row_groups: required lists are written empty *)
Definition ex_fm14 : file_meta :=
  {| fm_version := (-1); fm_schema := []; fm_num_rows := (-1); fm_row_groups := []; fm_key_value
  := None; fm_created_by := None |}.
Definition ex_fm14_bytes : bytes :=
  [21; 1; 25; 12; 22; 1; 25; 12; 0]%N.
Example ex_fm14_enc : enc_file_meta ex_fm14 = ex_fm14_bytes.
Proof. vm_compute. reflexivity. Qed.
Example ex_fm14_ok : file_meta_ok ex_fm14 = true.
Proof. vm_compute. reflexivity. Qed.
Example ex_fm14_dec : dec_file_meta (ex_fm14_bytes ++ [7; 7]%N) = Some (ex_fm14, [7; 7]%N).
Proof. rewrite <- ex_fm14_enc. apply dec_enc_file_meta, ex_fm14_ok. Qed.

(** a typical small file: 4 schema elements (one with every optional field, names with
    bytes >= 0x80 and the empty name), one row group of two columns, created_by *)
Definition ex_fm15 : file_meta :=
  {| fm_version := 1; fm_schema := [{| se_type := None; se_type_length := None; se_repetition :=
  None; se_name := [114; 111; 111; 116]%N; se_num_children := (Some 3); se_converted := None;
  se_scale := None; se_precision := None; se_field_id := None |}; {| se_type := (Some 2);
  se_type_length := None; se_repetition := (Some 0); se_name := [105; 100]%N; se_num_children :=
  None; se_converted := None; se_scale := None; se_precision := None; se_field_id := None |}; {|
  se_type := (Some 6); se_type_length := None; se_repetition := (Some 1); se_name := [110; 195;
  164; 109; 101; 255]%N; se_num_children := None; se_converted := (Some 0); se_scale := None;
  se_precision := None; se_field_id := None |}; {| se_type := (Some 7); se_type_length := (Some
  16); se_repetition := (Some 2); se_name := []%N; se_num_children := None; se_converted :=
  (Some 5); se_scale := (Some 2); se_precision := (Some 38); se_field_id := (Some (-7)) |}];
  fm_num_rows := 1000; fm_row_groups := [{| rg_columns := [{| cc_file_path := None;
  cc_file_offset := 4; cc_meta := (Some {| cm_type := 2; cm_encodings := [0; 3]; cm_path :=
  [[105; 100]%N]; cm_codec := 1; cm_num_values := 1000; cm_total_uncompressed := 8000;
  cm_total_compressed := 4000; cm_key_value := None; cm_data_page_offset := 4;
  cm_index_page_offset := None; cm_dictionary_page_offset := None; cm_statistics := None;
  cm_encoding_stats := None |}); cc_offset_index_offset := None; cc_offset_index_length := None;
  cc_column_index_offset := None; cc_column_index_length := None |}; {| cc_file_path := None;
  cc_file_offset := 4004; cc_meta := (Some {| cm_type := 2; cm_encodings := [0; 3]; cm_path :=
  [[110; 195; 164; 109; 101; 255]%N]; cm_codec := 1; cm_num_values := 1000;
  cm_total_uncompressed := 8000; cm_total_compressed := 4000; cm_key_value := None;
  cm_data_page_offset := 4004; cm_index_page_offset := None; cm_dictionary_page_offset := None;
  cm_statistics := None; cm_encoding_stats := None |}); cc_offset_index_offset := None;
  cc_offset_index_length := None; cc_column_index_offset := None; cc_column_index_length := None
  |}]; rg_total_byte_size := 16000; rg_num_rows := 1000 |}]; fm_key_value := None; fm_created_by
  := (Some [112; 97; 114; 115; 121; 108; 47; 112; 97; 114; 113; 117; 101; 116]%N) |}.
Definition ex_fm15_bytes : bytes :=
  [21; 2; 25; 76; 72; 4; 114; 111; 111; 116; 21; 6; 0; 21; 4; 37; 0; 24; 2; 105; 100; 0; 21; 12;
  37; 2; 24; 6; 110; 195; 164; 109; 101; 255; 37; 0; 0; 21; 14; 21; 32; 21; 4; 24; 0; 37; 10;
  21; 4; 21; 76; 21; 13; 0; 22; 208; 15; 25; 28; 25; 44; 38; 8; 28; 21; 4; 25; 37; 0; 6; 25; 24;
  2; 105; 100; 21; 2; 22; 208; 15; 22; 128; 125; 22; 192; 62; 38; 8; 0; 0; 38; 200; 62; 28; 21;
  4; 25; 37; 0; 6; 25; 24; 6; 110; 195; 164; 109; 101; 255; 21; 2; 22; 208; 15; 22; 128; 125;
  22; 192; 62; 38; 200; 62; 0; 0; 22; 128; 250; 1; 22; 208; 15; 0; 40; 14; 112; 97; 114; 115;
  121; 108; 47; 112; 97; 114; 113; 117; 101; 116; 0]%N.
Example ex_fm15_enc : enc_file_meta ex_fm15 = ex_fm15_bytes.
Proof. vm_compute. reflexivity. Qed.
Example ex_fm15_ok : file_meta_ok ex_fm15 = true.
Proof. vm_compute. reflexivity. Qed.
Example ex_fm15_dec : dec_file_meta (ex_fm15_bytes ++ [7; 7]%N) = Some (ex_fm15, [7; 7]%N).
Proof. rewrite <- ex_fm15_enc. apply dec_enc_file_meta, ex_fm15_ok. Qed.

(** exactly 14 schema elements (longest short-form list header) *)
Definition ex_fm18 : file_meta :=
  {| fm_version := 1; fm_schema := [{| se_type := None; se_type_length := None; se_repetition :=
  None; se_name := [101]%N; se_num_children := (Some 0); se_converted := None; se_scale := None;
  se_precision := None; se_field_id := None |}; {| se_type := None; se_type_length := None;
  se_repetition := None; se_name := [101]%N; se_num_children := (Some 1); se_converted := None;
  se_scale := None; se_precision := None; se_field_id := None |}; {| se_type := None;
  se_type_length := None; se_repetition := None; se_name := [101]%N; se_num_children := (Some
  2); se_converted := None; se_scale := None; se_precision := None; se_field_id := None |}; {|
  se_type := None; se_type_length := None; se_repetition := None; se_name := [101]%N;
  se_num_children := (Some 3); se_converted := None; se_scale := None; se_precision := None;
  se_field_id := None |}; {| se_type := None; se_type_length := None; se_repetition := None;
  se_name := [101]%N; se_num_children := (Some 4); se_converted := None; se_scale := None;
  se_precision := None; se_field_id := None |}; {| se_type := None; se_type_length := None;
  se_repetition := None; se_name := [101]%N; se_num_children := (Some 5); se_converted := None;
  se_scale := None; se_precision := None; se_field_id := None |}; {| se_type := None;
  se_type_length := None; se_repetition := None; se_name := [101]%N; se_num_children := (Some
  6); se_converted := None; se_scale := None; se_precision := None; se_field_id := None |}; {|
  se_type := None; se_type_length := None; se_repetition := None; se_name := [101]%N;
  se_num_children := (Some 7); se_converted := None; se_scale := None; se_precision := None;
  se_field_id := None |}; {| se_type := None; se_type_length := None; se_repetition := None;
  se_name := [101]%N; se_num_children := (Some 8); se_converted := None; se_scale := None;
  se_precision := None; se_field_id := None |}; {| se_type := None; se_type_length := None;
  se_repetition := None; se_name := [101]%N; se_num_children := (Some 9); se_converted := None;
  se_scale := None; se_precision := None; se_field_id := None |}; {| se_type := None;
  se_type_length := None; se_repetition := None; se_name := [101]%N; se_num_children := (Some
  10); se_converted := None; se_scale := None; se_precision := None; se_field_id := None |}; {|
  se_type := None; se_type_length := None; se_repetition := None; se_name := [101]%N;
  se_num_children := (Some 11); se_converted := None; se_scale := None; se_precision := None;
  se_field_id := None |}; {| se_type := None; se_type_length := None; se_repetition := None;
  se_name := [101]%N; se_num_children := (Some 12); se_converted := None; se_scale := None;
  se_precision := None; se_field_id := None |}; {| se_type := None; se_type_length := None;
  se_repetition := None; se_name := [101]%N; se_num_children := (Some 13); se_converted := None;
  se_scale := None; se_precision := None; se_field_id := None |}]; fm_num_rows := 1;
  fm_row_groups := []; fm_key_value := None; fm_created_by := None |}.
Definition ex_fm18_bytes : bytes :=
  [21; 2; 25; 236; 72; 1; 101; 21; 0; 0; 72; 1; 101; 21; 2; 0; 72; 1; 101; 21; 4; 0; 72; 1; 101;
  21; 6; 0; 72; 1; 101; 21; 8; 0; 72; 1; 101; 21; 10; 0; 72; 1; 101; 21; 12; 0; 72; 1; 101; 21;
  14; 0; 72; 1; 101; 21; 16; 0; 72; 1; 101; 21; 18; 0; 72; 1; 101; 21; 20; 0; 72; 1; 101; 21;
  22; 0; 72; 1; 101; 21; 24; 0; 72; 1; 101; 21; 26; 0; 22; 2; 25; 12; 0]%N.
Example ex_fm18_enc : enc_file_meta ex_fm18 = ex_fm18_bytes.
Proof. vm_compute. reflexivity. Qed.
Example ex_fm18_ok : file_meta_ok ex_fm18 = true.
Proof. vm_compute. reflexivity. Qed.
Example ex_fm18_dec : dec_file_meta (ex_fm18_bytes ++ [7; 7]%N) = Some (ex_fm18, [7; 7]%N).
Proof. rewrite <- ex_fm18_enc. apply dec_enc_file_meta, ex_fm18_ok. Qed.

(** 15 row groups (long-form list header), empty non nil key_value_metadata *)
Definition ex_fm17 : file_meta :=
  {| fm_version := 0; fm_schema := [{| se_type := (Some 3); se_type_length := None;
  se_repetition := None; se_name := [120]%N; se_num_children := None; se_converted := None;
  se_scale := None; se_precision := None; se_field_id := None |}]; fm_num_rows := 14;
  fm_row_groups := [{| rg_columns := [{| cc_file_path := None; cc_file_offset := 0; cc_meta :=
  None; cc_offset_index_offset := None; cc_offset_index_length := None; cc_column_index_offset
  := None; cc_column_index_length := None |}]; rg_total_byte_size := 0; rg_num_rows := 0 |}; {|
  rg_columns := [{| cc_file_path := None; cc_file_offset := 1000; cc_meta := None;
  cc_offset_index_offset := None; cc_offset_index_length := None; cc_column_index_offset :=
  None; cc_column_index_length := None |}]; rg_total_byte_size := 1; rg_num_rows := (-1) |}; {|
  rg_columns := [{| cc_file_path := None; cc_file_offset := 2000; cc_meta := None;
  cc_offset_index_offset := None; cc_offset_index_length := None; cc_column_index_offset :=
  None; cc_column_index_length := None |}]; rg_total_byte_size := 2; rg_num_rows := (-2) |}; {|
  rg_columns := [{| cc_file_path := None; cc_file_offset := 3000; cc_meta := None;
  cc_offset_index_offset := None; cc_offset_index_length := None; cc_column_index_offset :=
  None; cc_column_index_length := None |}]; rg_total_byte_size := 3; rg_num_rows := (-3) |}; {|
  rg_columns := [{| cc_file_path := None; cc_file_offset := 4000; cc_meta := None;
  cc_offset_index_offset := None; cc_offset_index_length := None; cc_column_index_offset :=
  None; cc_column_index_length := None |}]; rg_total_byte_size := 4; rg_num_rows := (-4) |}; {|
  rg_columns := [{| cc_file_path := None; cc_file_offset := 5000; cc_meta := None;
  cc_offset_index_offset := None; cc_offset_index_length := None; cc_column_index_offset :=
  None; cc_column_index_length := None |}]; rg_total_byte_size := 5; rg_num_rows := (-5) |}; {|
  rg_columns := [{| cc_file_path := None; cc_file_offset := 6000; cc_meta := None;
  cc_offset_index_offset := None; cc_offset_index_length := None; cc_column_index_offset :=
  None; cc_column_index_length := None |}]; rg_total_byte_size := 6; rg_num_rows := (-6) |}; {|
  rg_columns := [{| cc_file_path := None; cc_file_offset := 7000; cc_meta := None;
  cc_offset_index_offset := None; cc_offset_index_length := None; cc_column_index_offset :=
  None; cc_column_index_length := None |}]; rg_total_byte_size := 7; rg_num_rows := (-7) |}; {|
  rg_columns := [{| cc_file_path := None; cc_file_offset := 8000; cc_meta := None;
  cc_offset_index_offset := None; cc_offset_index_length := None; cc_column_index_offset :=
  None; cc_column_index_length := None |}]; rg_total_byte_size := 8; rg_num_rows := (-8) |}; {|
  rg_columns := [{| cc_file_path := None; cc_file_offset := 9000; cc_meta := None;
  cc_offset_index_offset := None; cc_offset_index_length := None; cc_column_index_offset :=
  None; cc_column_index_length := None |}]; rg_total_byte_size := 9; rg_num_rows := (-9) |}; {|
  rg_columns := [{| cc_file_path := None; cc_file_offset := 10000; cc_meta := None;
  cc_offset_index_offset := None; cc_offset_index_length := None; cc_column_index_offset :=
  None; cc_column_index_length := None |}]; rg_total_byte_size := 10; rg_num_rows := (-10) |};
  {| rg_columns := [{| cc_file_path := None; cc_file_offset := 11000; cc_meta := None;
  cc_offset_index_offset := None; cc_offset_index_length := None; cc_column_index_offset :=
  None; cc_column_index_length := None |}]; rg_total_byte_size := 11; rg_num_rows := (-11) |};
  {| rg_columns := [{| cc_file_path := None; cc_file_offset := 12000; cc_meta := None;
  cc_offset_index_offset := None; cc_offset_index_length := None; cc_column_index_offset :=
  None; cc_column_index_length := None |}]; rg_total_byte_size := 12; rg_num_rows := (-12) |};
  {| rg_columns := [{| cc_file_path := None; cc_file_offset := 13000; cc_meta := None;
  cc_offset_index_offset := None; cc_offset_index_length := None; cc_column_index_offset :=
  None; cc_column_index_length := None |}]; rg_total_byte_size := 13; rg_num_rows := (-13) |};
  {| rg_columns := [{| cc_file_path := None; cc_file_offset := 14000; cc_meta := None;
  cc_offset_index_offset := None; cc_offset_index_length := None; cc_column_index_offset :=
  None; cc_column_index_length := None |}]; rg_total_byte_size := 14; rg_num_rows := (-14) |}];
  fm_key_value := (Some []); fm_created_by := None |}.
Definition ex_fm17_bytes : bytes :=
  [21; 0; 25; 28; 21; 6; 56; 1; 120; 0; 22; 28; 25; 252; 15; 25; 28; 38; 0; 0; 22; 0; 22; 0; 0;
  25; 28; 38; 208; 15; 0; 22; 2; 22; 1; 0; 25; 28; 38; 160; 31; 0; 22; 4; 22; 3; 0; 25; 28; 38;
  240; 46; 0; 22; 6; 22; 5; 0; 25; 28; 38; 192; 62; 0; 22; 8; 22; 7; 0; 25; 28; 38; 144; 78; 0;
  22; 10; 22; 9; 0; 25; 28; 38; 224; 93; 0; 22; 12; 22; 11; 0; 25; 28; 38; 176; 109; 0; 22; 14;
  22; 13; 0; 25; 28; 38; 128; 125; 0; 22; 16; 22; 15; 0; 25; 28; 38; 208; 140; 1; 0; 22; 18; 22;
  17; 0; 25; 28; 38; 160; 156; 1; 0; 22; 20; 22; 19; 0; 25; 28; 38; 240; 171; 1; 0; 22; 22; 22;
  21; 0; 25; 28; 38; 192; 187; 1; 0; 22; 24; 22; 23; 0; 25; 28; 38; 144; 203; 1; 0; 22; 26; 22;
  25; 0; 25; 28; 38; 224; 218; 1; 0; 22; 28; 22; 27; 0; 25; 12; 0]%N.
Example ex_fm17_enc : enc_file_meta ex_fm17 = ex_fm17_bytes.
Proof. vm_compute. reflexivity. Qed.
Example ex_fm17_ok : file_meta_ok ex_fm17 = true.
Proof. vm_compute. reflexivity. Qed.
Example ex_fm17_dec : dec_file_meta (ex_fm17_bytes ++ [7; 7]%N) = Some (ex_fm17, [7; 7]%N).
Proof. rewrite <- ex_fm17_enc. apply dec_enc_file_meta, ex_fm17_ok. Qed.

(** Fields the model does not carry are skipped when reading: the library's
    bytes for a FileMetaData whose schema elements have a logicalType (INTEGER
    with an i8 and a bool inside, TIMESTAMP with nested unions), whose row group
    has sorting_columns (required bools) and which has column_orders, decode to
    the record without them. *)
Definition ex_fm19 : file_meta :=
  {| fm_version := 2; fm_schema := [{| se_type := None; se_type_length := None; se_repetition :=
  None; se_name := [114]%N; se_num_children := (Some 1); se_converted := None; se_scale := None;
  se_precision := None; se_field_id := None |}; {| se_type := (Some 1); se_type_length := None;
  se_repetition := None; se_name := [117; 56]%N; se_num_children := None; se_converted := None;
  se_scale := None; se_precision := None; se_field_id := None |}; {| se_type := (Some 2);
  se_type_length := None; se_repetition := None; se_name := [116; 115]%N; se_num_children :=
  None; se_converted := None; se_scale := None; se_precision := None; se_field_id := None |}];
  fm_num_rows := 5; fm_row_groups := [{| rg_columns := [{| cc_file_path := None; cc_file_offset
  := 9; cc_meta := None; cc_offset_index_offset := None; cc_offset_index_length := None;
  cc_column_index_offset := None; cc_column_index_length := None |}]; rg_total_byte_size := 3;
  rg_num_rows := 5 |}]; fm_key_value := None; fm_created_by := None |}.
Definition ex_fm19_bytes : bytes :=
  [21; 4; 25; 60; 72; 1; 114; 21; 2; 0; 21; 2; 56; 2; 117; 56; 108; 172; 19; 248; 18; 0; 0; 0;
  21; 4; 56; 2; 116; 115; 108; 140; 17; 28; 44; 0; 0; 0; 0; 0; 22; 10; 25; 28; 25; 28; 38; 18;
  0; 22; 6; 22; 10; 25; 44; 21; 0; 17; 18; 0; 21; 2; 18; 17; 0; 0; 57; 44; 28; 0; 0; 28; 0; 0;
  0]%N.
Example ex_fm19_dec : dec_file_meta (ex_fm19_bytes ++ [9]%N) = Some (ex_fm19, [9]%N).
Proof. vm_compute. reflexivity. Qed.

Example ex_fm15_truncated :
  forallb (fun k => match dec_file_meta (firstn k ex_fm15_bytes) with None => true | Some _ => false end)
          (seq 0 (length ex_fm15_bytes)) = true.
Proof.
  apply forallb_forall. intros k Hk. apply in_seq in Hk.
  rewrite (local_truncated _ dec_file_meta_local _ _ _ k ex_fm15_dec) by lia. reflexivity.
Qed.
Example ex_ph12_truncated :
  forallb (fun k => match dec_page_header (firstn k ex_ph12_bytes) with None => true | Some _ => false end)
          (seq 0 (length ex_ph12_bytes)) = true.
Proof.
  apply forallb_forall. intros k Hk. apply in_seq in Hk.
  rewrite (local_truncated _ dec_page_header_local _ _ _ k ex_ph12_dec) by lia. reflexivity.
Qed.

Print Assumptions dec_enc_page_header.
Print Assumptions enc_page_header_wf_bytes.
Print Assumptions dec_enc_file_meta.
Print Assumptions enc_file_meta_wf_bytes.
