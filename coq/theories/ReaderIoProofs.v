(** * ReaderIoProofs: the reader of [Reader.v] against its source.

    Any property [P] of source computations that holds of the primitives and
    is preserved by [bind] ([io_closed P], see [IoProofs.v]) holds of every
    function of the reader (Section [Lift]).  Instantiated with [sched_indep]
    and [fault_local] and pushed through [iterate] / [read_all_src]:

    - [read_frag_indep] (C08): the outcome of a whole reader life does not
      depend on how the source fragments its reads;
    - [src_fault_safe] (C10): a failing source operation either is never
      reached or surfaces as an error after a prefix of the fault-free
      records; it never introduces a panic.

    Both hold for arbitrary file bytes, shapes and codecs. *)
From Coq Require Import List NArith ZArith Lia Bool Arith PeanoNat.
From Coq Require Import ZifyN ZifyNat ZifyBool.
From PQ Require Import Bytes Schema Dremel Rle Plain MetaTypes Thrift Meta Io Reader IoProofs.
Import ListNotations.
Local Open Scope N_scope.
Local Open Scope io_scope.

Section Lift.

Variable P : forall A : Type, M A -> Prop.
Hypothesis HP : io_closed P.
Variable decompress : Z -> bytes -> option bytes.

Lemma P_lift {A} (r : result A) : P A (lift r).
Proof.
  destruct r as [a| |]; unfold lift;
    [apply (ic_ret P HP) | apply (ic_err P HP) | apply (ic_panic P HP)].
Qed.

(** one structural step on the head of a monadic term; [k] closes recursive calls *)
Ltac io_step k :=
  first
    [ apply (ic_ret P HP) | apply (ic_err P HP) | apply (ic_panic P HP)
    | apply (ic_get_pos P HP) | apply (ic_seek_start P HP) | apply (ic_seek_end P HP)
    | apply (ic_read_full P HP) | apply (ic_read_struct P HP) | apply P_lift
    | k
    | apply (ic_bind P HP); [ | let x := fresh "x" in intros x ]
    | match goal with
      | |- P _ (if ?b then _ else _) => destruct b
      | |- P _ (match ?o with Some _ => _ | None => _ end) => destruct o
      | |- P _ (let '(_, _) := ?x in _) => destruct x
      end
    | progress cbv zeta ].

Ltac io_auto_k k := repeat io_step k.
Ltac io_auto := io_auto_k fail.

Lemma P_page_data codec ph : P bytes (page_data decompress codec ph).
Proof. unfold page_data. io_auto. Qed.

Lemma P_do_read_required fuel codec pgn : forall nread acc sizes,
  P (bytes * list nat)%type (do_read_required decompress fuel codec pgn nread acc sizes).
Proof.
  induction fuel as [|f IH]; intros nread acc sizes; cbn [do_read_required].
  - io_auto.
  - io_auto_k ltac:(first [apply P_page_data | apply IH]).
Qed.

Lemma P_do_read_optional fuel codec maxdef maxrep size : forall nread acc,
  P opt_acc (do_read_optional decompress fuel codec maxdef maxrep size nread acc).
Proof.
  induction fuel as [|f IH]; intros nread acc; cbn [do_read_optional].
  - io_auto.
  - io_auto_k ltac:(first [apply P_page_data | apply IH]).
Qed.

Lemma P_read_chunk c cm : P (list entry) (read_chunk decompress c cm).
Proof.
  unfold read_chunk.
  io_auto_k ltac:(first [apply P_do_read_required | apply P_do_read_optional]).
Qed.

Lemma P_read_chunks cols ccs : forall acc, P (list (list entry)) (read_chunks decompress cols ccs acc).
Proof.
  induction ccs as [|cc rest IH]; intros acc; cbn [read_chunks].
  - io_auto.
  - io_auto_k ltac:(first [apply P_read_chunk | apply IH]).
Qed.

Lemma P_read_row_group fs rg : P (list value) (read_row_group decompress fs rg).
Proof. unfold read_row_group. io_auto_k ltac:(apply P_read_chunks). Qed.

Lemma P_open_footer fs : P file_meta (open_footer fs).
Proof. unfold open_footer. io_auto. Qed.

(** [load_nonempty] is written with explicit matches on the result; each step is
    convertible to a [bind] of [read_row_group] *)
Lemma P_load_nonempty fs : forall rgs,
  P (list value * Z * list row_group)%type (load_nonempty decompress fs rgs).
Proof.
  induction rgs as [|rg rest IH].
  - change (P (list value * Z * list row_group)%type (ret ([], 0%Z, []))).
    apply (ic_ret P HP).
  - change (P (list value * Z * list row_group)%type
              (bind (read_row_group decompress fs rg)
                    (fun rrecs s' => if (0 <? rg_num_rows rg)%Z
                                     then ret (rrecs, rg_num_rows rg, rest) s'
                                     else load_nonempty decompress fs rest s'))).
    apply (ic_bind P HP); [apply P_read_row_group|].
    intros rrecs. destruct (0 <? rg_num_rows rg)%Z.
    + apply (ic_ret P HP).
    + exact IH.
Qed.

End Lift.

Definition trailer_len (file : bytes) : N := le_dec (firstn 4 (skipn (length file - 8) file)).

(** the footer ReadMetaData finds: a function of the file alone, since both
    seeks are from the end *)
Definition stored_footer (file : bytes) : option file_meta :=
  if (length file <? 8)%nat then None
  else if (length file <? 8 + N.to_nat (trailer_len file))%nat then None
  else option_map fst (dec_file_meta (skipn (length file - 8 - N.to_nat (trailer_len file)) file)).

Lemma stored_footer_some file fm :
  stored_footer file = Some fm ->
  (8 <= length file)%nat /\ (8 + N.to_nat (trailer_len file) <= length file)%nat /\
  exists rest, dec_file_meta (skipn (length file - 8 - N.to_nat (trailer_len file)) file) = Some (fm, rest).
Proof.
  unfold stored_footer.
  destruct (Nat.ltb_spec (length file) 8) as [|Hlen]; [discriminate|].
  destruct (Nat.ltb_spec (length file) (8 + N.to_nat (trailer_len file))) as [|HL]; [discriminate|].
  destruct (dec_file_meta _) as [[fm' rest]|]; [|discriminate].
  intros [= <-]. eauto.
Qed.

(** Metadata.Pages, then Seek(4) *)
Definition check_chunks (fs : list field) (fm : file_meta) : M file_meta :=
  if forallb (fun rg => forallb (fun cc => match cc_meta cc with
                                           | Some cm => match find_col (columns fs) (cm_path cm) 0 with Some _ => true | None => false end
                                           | None => true end) (rg_columns rg)) (fm_row_groups fm)
  then (if forallb (fun rg => forallb (fun cc => match cc_meta cc with Some _ => true | None => false end) (rg_columns rg)) (fm_row_groups fm)
        then m_seek_start 4 ;;; ret fm
        else fail_panic)
  else fail_err.

(** ReadMetaData, whatever is done with the footer afterwards *)
Lemma read_footer_spec {B} (k : file_meta -> M B) s :
  s_fail s = None ->
  let m := m_seek_end (-8) ;;;
           lenb <-- m_read_full 4 ;;
           m_seek_end (- (Z.of_N (le_dec lenb) + 8)) ;;;
           fm <-- m_read_struct dec_file_meta ;; k fm in
  match stored_footer (s_file s) with
  | Some fm => exists p s', lands s p s' /\ m s = k fm s'
  | None => m s = Err
  end.
Proof.
  intros Hs m. unfold stored_footer, m. clear m.
  (* Seek(-8, SeekEnd) *)
  pose proof (m_seek_end_back (-8) 8 s Hs eq_refl) as H1.
  destruct (Nat.ltb_spec (length (s_file s)) 8) as [|Hlen]; [exact (bind_err H1)|].
  destruct H1 as (s1 & H1 & L1). rewrite (bind_ok H1).
  pose proof (lands_avail _ _ _ L1) as Hav1. rewrite Nat2N.id in Hav1.
  destruct (m_read_full_ok 4 s1 (proj1 (proj2 L1))) as (s2 & H2 & L2).
  { rewrite Hav1, skipn_length. lia. }
  rewrite (bind_ok H2), Hav1. fold (trailer_len (s_file s)).
  pose proof (lands_trans _ _ _ _ _ L1 L2) as L12.
  (* Seek(-(L+8), SeekEnd) *)
  pose proof (m_seek_end_back (- (Z.of_N (trailer_len (s_file s)) + 8)) (8 + N.to_nat (trailer_len (s_file s))) s2
                (proj1 (proj2 L12)) ltac:(lia)) as H3.
  rewrite (proj1 L12) in H3.
  destruct (length (s_file s) <? _)%nat; [exact (bind_err H3)|].
  destruct H3 as (s3 & H3 & L3). rewrite (bind_ok H3).
  pose proof (lands_avail _ _ _ (lands_trans _ _ _ _ _ L12 L3)) as Hav3. rewrite Nat2N.id, Nat.sub_add_distr in Hav3. rewrite <- Hav3.
  destruct (dec_file_meta (avail s3)) as [[fm rest]|] eqn:Hdec; cbn [option_map fst].
  2:{ exact (bind_err (m_read_struct_none _ _ (proj1 (proj2 L3)) Hdec)). }
  destruct (m_read_struct_ok dec_file_meta s3 fm rest (proj1 (proj2 L3)) Hdec) as (s4 & H4 & L4).
  rewrite (bind_ok H4). eexists _, s4. split; [|reflexivity].
  exact (lands_trans _ _ _ _ _ L12 (lands_trans _ _ _ _ _ L3 L4)).
Qed.

Lemma open_footer_spec fs s :
  s_fail s = None ->
  match stored_footer (s_file s) with
  | Some fm => exists p s', lands s p s' /\ open_footer fs s = check_chunks fs fm s'
  | None => open_footer fs s = Err
  end.
Proof. exact (read_footer_spec (check_chunks fs) s). Qed.

Section Instances.

Variable decompress : Z -> bytes -> option bytes.

Lemma sched_indep_lift {A} (r : result A) : sched_indep (lift r).
Proof. apply (P_lift (@sched_indep) sched_indep_closed). Qed.
Lemma sched_indep_page_data codec ph : sched_indep (page_data decompress codec ph).
Proof. apply (P_page_data (@sched_indep) sched_indep_closed). Qed.
Lemma sched_indep_do_read_required fuel codec pgn nread acc sizes :
  sched_indep (do_read_required decompress fuel codec pgn nread acc sizes).
Proof. apply (P_do_read_required (@sched_indep) sched_indep_closed). Qed.
Lemma sched_indep_do_read_optional fuel codec maxdef maxrep size nread acc :
  sched_indep (do_read_optional decompress fuel codec maxdef maxrep size nread acc).
Proof. apply (P_do_read_optional (@sched_indep) sched_indep_closed). Qed.
Lemma sched_indep_read_chunk c cm : sched_indep (read_chunk decompress c cm).
Proof. apply (P_read_chunk (@sched_indep) sched_indep_closed). Qed.
Lemma sched_indep_read_chunks cols ccs acc : sched_indep (read_chunks decompress cols ccs acc).
Proof. apply (P_read_chunks (@sched_indep) sched_indep_closed). Qed.
Lemma sched_indep_read_row_group fs rg : sched_indep (read_row_group decompress fs rg).
Proof. apply (P_read_row_group (@sched_indep) sched_indep_closed). Qed.
Lemma sched_indep_open_footer fs : sched_indep (open_footer fs).
Proof. apply (P_open_footer (@sched_indep) sched_indep_closed). Qed.
Lemma sched_indep_load_nonempty fs rgs : sched_indep (load_nonempty decompress fs rgs).
Proof. apply (P_load_nonempty (@sched_indep) sched_indep_closed). Qed.

Lemma fault_local_lift {A} (r : result A) : fault_local (lift r).
Proof. apply (P_lift (@fault_local) fault_local_closed). Qed.
Lemma fault_local_page_data codec ph : fault_local (page_data decompress codec ph).
Proof. apply (P_page_data (@fault_local) fault_local_closed). Qed.
Lemma fault_local_do_read_required fuel codec pgn nread acc sizes :
  fault_local (do_read_required decompress fuel codec pgn nread acc sizes).
Proof. apply (P_do_read_required (@fault_local) fault_local_closed). Qed.
Lemma fault_local_do_read_optional fuel codec maxdef maxrep size nread acc :
  fault_local (do_read_optional decompress fuel codec maxdef maxrep size nread acc).
Proof. apply (P_do_read_optional (@fault_local) fault_local_closed). Qed.
Lemma fault_local_read_chunk c cm : fault_local (read_chunk decompress c cm).
Proof. apply (P_read_chunk (@fault_local) fault_local_closed). Qed.
Lemma fault_local_read_chunks cols ccs acc : fault_local (read_chunks decompress cols ccs acc).
Proof. apply (P_read_chunks (@fault_local) fault_local_closed). Qed.
Lemma fault_local_read_row_group fs rg : fault_local (read_row_group decompress fs rg).
Proof. apply (P_read_row_group (@fault_local) fault_local_closed). Qed.
Lemma fault_local_open_footer fs : fault_local (open_footer fs).
Proof. apply (P_open_footer (@fault_local) fault_local_closed). Qed.
Lemma fault_local_load_nonempty fs rgs : fault_local (load_nonempty decompress fs rgs).
Proof. apply (P_load_nonempty (@fault_local) fault_local_closed). Qed.

(** ** C08: fragmentation independence of a whole reader life *)

Lemma iterate_frag fs rows fuel : forall cursor rgcursor rgcount cur rgs nexts recs s1 s2,
  src_equiv s1 s2 ->
  iterate decompress fuel fs rows cursor rgcursor rgcount cur rgs nexts recs s1 =
  iterate decompress fuel fs rows cursor rgcursor rgcount cur rgs nexts recs s2.
Proof.
  induction fuel as [|f IH]; intros cursor rgcursor rgcount cur rgs nexts recs s1 s2 Heq;
    cbn [iterate]; [reflexivity|].
  destruct (rows <=? cursor)%Z; [reflexivity|].
  destruct (rgcount <=? rgcursor)%Z; [|apply IH; exact Heq].
  destruct (res_equiv_inv _ _ (sched_indep_load_nonempty fs rgs s1 s2 Heq)) as [[[cur' rgcount'] rgs'] t1 t2 He| |];
    [apply IH, He | reflexivity | reflexivity].
Qed.

Lemma read_all_src_equiv fs s1 s2 :
  src_equiv s1 s2 -> read_all_src decompress fs s1 = read_all_src decompress fs s2.
Proof.
  intros Heq. unfold read_all_src.
  destruct (res_equiv_inv _ _ (sched_indep_open_footer fs s1 s2 Heq)) as [fm t1 t2 He| |];
    [|reflexivity|reflexivity].
  destruct (fm_row_groups fm) as [|rg rest]; [apply iterate_frag, He|].
  destruct (res_equiv_inv _ _ (sched_indep_read_row_group fs rg t1 t2 He)) as [rrecs u1 u2 He'| |];
    [apply iterate_frag, He' | reflexivity | reflexivity].
Qed.

Theorem read_frag_indep fs file sched1 sched2 fail :
  read_all_src decompress fs (mk_src file sched1 fail) =
  read_all_src decompress fs (mk_src file sched2 fail).
Proof. apply read_all_src_equiv, src_equiv_mk_src. Qed.

(** ** C10: a failing source operation *)

Definition extends (rows : Z) (nexts : N) (recs : list value) (o : outcome) : Prop :=
  o_open_ok o = true /\ o_rows o = rows /\
  exists rest, o_recs o = recs ++ rest /\ o_nexts o = nexts + nlen rest.

Lemma extends_mk rows nexts err panic recs : extends rows nexts recs (mk_outcome rows nexts err panic recs).
Proof.
  split; [reflexivity|]. split; [reflexivity|]. exists []. cbn [mk_outcome o_recs o_nexts].
  rewrite app_nil_r, N.add_0_r. auto.
Qed.

Lemma extends_step rows nexts recs x o : extends rows (nexts + 1) (recs ++ [x]) o -> extends rows nexts recs o.
Proof.
  intros (Hok & Hrows & rest & Hrest & Hn). split; [exact Hok|]. split; [exact Hrows|].
  exists (x :: rest). rewrite Hrest, Hn, <- app_assoc. split; [reflexivity|].
  unfold nlen. cbn [length]. lia.
Qed.

Lemma iterate_extends fs rows fuel : forall cursor rgcursor rgcount cur rgs nexts recs s,
  extends rows nexts recs (iterate decompress fuel fs rows cursor rgcursor rgcount cur rgs nexts recs s).
Proof.
  induction fuel as [|f IH]; intros cursor rgcursor rgcount cur rgs nexts recs s;
    cbn [iterate]; [apply extends_mk|].
  destruct (rows <=? cursor)%Z; [apply extends_mk|].
  destruct (rgcount <=? rgcursor)%Z; [|eapply extends_step; apply IH].
  destruct (load_nonempty decompress fs rgs s) as [[[[cur' rgcount'] rgs'] s']| |];
    [eapply extends_step; apply IH | apply extends_mk | apply extends_mk].
Qed.

Lemma read_all_src_nexts_recs fs s :
  o_nexts (read_all_src decompress fs s) = nlen (o_recs (read_all_src decompress fs s)).
Proof.
  assert (H : forall rows o, extends rows 0 [] o -> o_nexts o = nlen (o_recs o)).
  { intros rows o (_ & _ & rest & -> & ->). reflexivity. }
  unfold read_all_src.
  destruct (open_footer fs s) as [[fm s1]| |]; [|reflexivity|reflexivity].
  destruct (fm_row_groups fm) as [|rg rest]; [eapply H, iterate_extends|].
  destruct (read_row_group decompress fs rg s1) as [[rrecs s2]| |];
    [eapply H, iterate_extends | reflexivity | reflexivity].
Qed.

Definition fault_outcome (good bad : outcome) : Prop :=
  bad = good                              (* the operation is never reached *)
  \/ bad = open_failed false              (* the constructor returns an error *)
  \/ (o_open_ok good = true /\ o_open_ok bad = true /\ o_rows bad = o_rows good /\
      o_err bad = true /\ o_panic bad = false /\       (* Next returns false, Error() is set *)
      o_nexts bad <= o_nexts good /\ exists rest, o_recs good = o_recs bad ++ rest).

Lemma fault_outcome_same o : fault_outcome o o.
Proof. left. reflexivity. Qed.

Lemma fault_outcome_open_failed o : fault_outcome o (open_failed false).
Proof. right. left. reflexivity. Qed.

Lemma fault_outcome_cut rows nexts recs good :
  extends rows nexts recs good -> fault_outcome good (mk_outcome rows nexts true false recs).
Proof.
  intros (Hok & Hrows & rest & Hrest & Hn). right. right.
  cbn [mk_outcome o_open_ok o_rows o_nexts o_err o_panic o_recs]. rewrite Hn.
  repeat split; [exact Hok | symmetry; exact Hrows | apply N.le_add_r |]. exists rest. exact Hrest.
Qed.

Lemma iterate_fault fs rows k fuel : forall cursor rgcursor rgcount cur rgs nexts recs s,
  s_fail s = None ->
  fault_outcome (iterate decompress fuel fs rows cursor rgcursor rgcount cur rgs nexts recs s)
                (iterate decompress fuel fs rows cursor rgcursor rgcount cur rgs nexts recs (with_fail (Some k) s)).
Proof.
  induction fuel as [|f IH]; intros cursor rgcursor rgcount cur rgs nexts recs s Hs;
    cbn [iterate]; [apply fault_outcome_same|].
  destruct (rows <=? cursor)%Z; [apply fault_outcome_same|].
  destruct (rgcount <=? rgcursor)%Z; [|apply IH; exact Hs].
  destruct (proj1 (fault_rel_iff _ _ _ _) (fault_local_load_nonempty fs rgs s k Hs))
    as [[[cur' rgcount'] rgs'] s' Hs' _ _ | [[cur' rgcount'] rgs'] s' _ _ | | | _].
  - apply IH, Hs'.
  - eapply fault_outcome_cut, extends_step, iterate_extends.
  - apply fault_outcome_same.
  - apply fault_outcome_same.
  - apply fault_outcome_cut, extends_mk.
Qed.

Lemma read_all_src_fault fs s k :
  s_fail s = None ->
  fault_outcome (read_all_src decompress fs s) (read_all_src decompress fs (with_fail (Some k) s)).
Proof.
  intros Hs. unfold read_all_src.
  destruct (proj1 (fault_rel_iff _ _ _ _) (fault_local_open_footer fs s k Hs)) as [fm s1 Hs1 _ _ | fm s1 _ _ | | | _];
    try apply fault_outcome_same; try apply fault_outcome_open_failed.
  destruct (fm_row_groups fm) as [|rg rest]; [apply iterate_fault, Hs1|].
  destruct (proj1 (fault_rel_iff _ _ _ _) (fault_local_read_row_group fs rg s1 k Hs1)) as [rrecs s2 Hs2 _ _ | rrecs s2 _ _ | | | _];
    try apply fault_outcome_same; try apply fault_outcome_open_failed.
  apply iterate_fault, Hs2.
Qed.

(** C10, strongest form: three cases *)
Theorem src_fault_cases fs file sched k :
  fault_outcome (read_all_src decompress fs (mk_src file sched None))
                (read_all_src decompress fs (mk_src file sched (Some k))).
Proof.
  change (mk_src file sched (Some k)) with (with_fail (Some k) (mk_src file sched None)).
  apply read_all_src_fault. reflexivity.
Qed.

(** C10 as one statement: identical outcome, or an error is reported (by the
    constructor or by Error() after the loop), no panic, and the delivered
    records (and number of successful Next) are a prefix of the fault-free ones *)
Theorem src_fault_safe fs file sched k :
  let good := read_all_src decompress fs (mk_src file sched None) in
  let bad := read_all_src decompress fs (mk_src file sched (Some k)) in
  bad = good \/
  (o_err bad = true /\ o_panic bad = false /\
   (o_open_ok bad = false \/ (o_open_ok good = true /\ o_rows bad = o_rows good)) /\
   o_nexts bad <= o_nexts good /\
   exists rest, o_recs good = o_recs bad ++ rest).
Proof.
  intros good bad. destruct (src_fault_cases fs file sched k) as [H | [H | H]]; fold good bad in H.
  - left. exact H.
  - right. rewrite H. unfold open_failed. cbn [o_err o_panic o_open_ok o_nexts o_recs negb app].
    repeat split; [left; reflexivity | lia |]. exists (o_recs good). reflexivity.
  - right. destruct H as (Hg & Hb & Hrows & Herr & Hp & Hn & Hrest).
    repeat split; [exact Herr | exact Hp | right; split; [exact Hg | exact Hrows] | exact Hn | exact Hrest].
Qed.

Corollary src_fault_no_new_panic fs file sched k :
  o_panic (read_all_src decompress fs (mk_src file sched None)) = false ->
  o_panic (read_all_src decompress fs (mk_src file sched (Some k))) = false.
Proof.
  intros Hgood. destruct (src_fault_safe fs file sched k) as [H | (_ & Hp & _)]; cbv zeta in *.
  - rewrite H. exact Hgood.
  - exact Hp.
Qed.

Corollary src_fault_clean_same fs file sched k :
  o_err (read_all_src decompress fs (mk_src file sched (Some k))) = false ->
  read_all_src decompress fs (mk_src file sched (Some k)) = read_all_src decompress fs (mk_src file sched None).
Proof.
  intros Hclean. destruct (src_fault_safe fs file sched k) as [H | (Herr & _)]; cbv zeta in *.
  - exact H.
  - rewrite Herr in Hclean. discriminate Hclean.
Qed.

End Instances.

Print Assumptions read_frag_indep.
Print Assumptions src_fault_cases.
Print Assumptions src_fault_safe.
Print Assumptions src_fault_no_new_panic.
Print Assumptions src_fault_clean_same.
Print Assumptions read_all_src_nexts_recs.
