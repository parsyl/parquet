(** * PageProofs: the validator's page check accepts every page the writer
    model builds and sees exactly its entries (the page layer of C02). *)
From Coq Require Import List NArith ZArith Lia Bool Arith PeanoNat.
From Coq Require Import ZifyN ZifyNat ZifyBool.
From PQ Require Import Bytes Varint VarintProofs Bitpack BitpackProofs Schema Dremel DremelProofs
  RleSpec RleSpecProofs Rle RleEncProofs RleProofs Plain PlainProofs Stats StatsProofs
  MetaTypes Thrift ThriftProofs Meta MetaProofs Writer FileSpec.
Import ListNotations.
Local Open Scope N_scope.

(** level widths 1..4 bits *)
Definition col_ok (c : col) : Prop := max_def c <= 15 /\ max_rep c <= 15.

Lemma col_required_max_def c : col_required c = true <-> max_def c = 0.
Proof.
  unfold col_required, max_def, count_rep.
  induction (c_reps c) as [|r rs IH]; cbn [forallb filter]; [split; reflexivity|].
  destruct (is_nonreq r); cbn [negb andb length].
  - split; [discriminate | lia].
  - exact IH.
Qed.

Lemma col_required_false_max_def c : col_required c = false -> 0 < max_def c.
Proof.
  intros H. destruct (N.eq_dec (max_def c) 0) as [E|E]; [|lia].
  apply col_required_max_def in E. congruence.
Qed.

Lemma max_rep_le_max_def c : max_rep c <= max_def c.
Proof.
  unfold max_rep, max_def, count_rep.
  induction (c_reps c) as [|r rs IH]; cbn [filter length]; [lia|].
  destruct r; cbn [is_rep is_nonreq length]; lia.
Qed.

Lemma bit_width_bound n v : v <= n -> v < 2 ^ Writer.bit_width n.
Proof. intros Hv. pose proof (size_nat_gt n) as Hn. unfold Writer.bit_width. lia. Qed.

Lemma bit_width_widths n : 1 <= n <= 15 -> In (Writer.bit_width n) widths.
Proof.
  intros Hn. unfold Writer.bit_width.
  pose proof (size_nat_bound n 4) as Hle.
  destruct n as [|p]; [lia|]. cbn [N.size_nat] in *.
  assert (H : (1 <= Pos.size_nat p <= 4)%nat) by (destruct p; cbn [Pos.size_nat] in *; lia).
  destruct (Pos.size_nat p) as [|[|[|[|[|k]]]]]; cbn; auto; lia.
Qed.

Lemma i32_small n : n < 2 ^ 31 -> i32 n = Z.of_N n.
Proof.
  intros Hn. unfold i32. cbv zeta.
  change (2 ^ 31) with 2147483648 in *. change (2 ^ 32) with 4294967296.
  rewrite N.mod_small by lia.
  destruct (N.ltb_spec n 2147483648) as [_|H]; [reflexivity | lia].
Qed.

Lemma i32_small_to_N n : n < 2 ^ 31 -> Z.to_N (i32 n) = n.
Proof. intros Hn. rewrite i32_small by exact Hn. apply N2Z.id. Qed.

Lemma i32_small_neg n : n < 2 ^ 31 -> (i32 n <? 0)%Z = false.
Proof. intros Hn. rewrite i32_small by exact Hn. lia. Qed.

Lemma i32_ok_i32 n : i32_ok (i32 n) = true.
Proof.
  unfold i32_ok, in_range, i32. cbv zeta.
  change (2 ^ 31) with 2147483648. change (2 ^ 32) with 4294967296.
  pose proof (N.mod_upper_bound n 4294967296) as Hm. revert Hm.
  generalize (n mod 4294967296). intros m Hm.
  destruct (N.ltb_spec m 2147483648); lia.
Qed.

Lemma enc_page_header_nonempty ph : (1 <= length (enc_page_header ph))%nat.
Proof. apply tenc_fields_len. Qed.

(** ** A level section: the specification decoder reads back what [writeLevels] wrote *)

Lemma take_levels_encode w ls maxlvl rest :
  In w widths -> Forall (fun v => v < 2 ^ w) ls -> Forall (fun v => v <= maxlvl) ls ->
  N.of_nat (length ls) + 8 <= 2 ^ 31 ->
  take_levels w (length ls) maxlvl (rle_encode w ls ++ rest) = inr (ls, rest).
Proof.
  intros Hw Hv Hm Hl.
  change (2 ^ 31) with 2147483648 in Hl.
  destruct (rle_encode_runs w ls Hw Hv) as (rs & pad & Henc & Hok & Hvals & Hpad & Hlen).
  { change (2 ^ 31) with 2147483648. lia. }
  unfold take_levels. rewrite Henc, hybrid_decode_framed_encode; [|exact Hw| |].
  - rewrite Hvals, app_length, repeat_length.
    destruct (Nat.ltb_spec (length ls + pad) (length ls)) as [H|_]; [lia|].
    replace (length ls + pad - length ls)%nat with pad by lia.
    destruct (Nat.leb_spec 8 pad) as [H|_]; [lia|].
    rewrite firstn_app_exact.
    replace (forallb (fun l => l <=? maxlvl) ls) with true; [reflexivity|].
    symmetry. apply forallb_forall. intros x Hx.
    rewrite Forall_forall in Hm. specialize (Hm x Hx). lia.
  - eapply Forall_impl; [|exact Hok]. intros r. apply closed_ok_wf.
  - unfold nlen. change (2 ^ 32) with 4294967296. lia.
Qed.

Definition entry_vals (es : list entry) : list value :=
  flat_map (fun e => match e_val e with Some v => [v] | None => [] end) es.

Definition level_section (maxl : N) (ls : list N) : bytes :=
  if 0 <? maxl then rle_encode (Writer.bit_width maxl) ls else [].

Lemma page_payload_sections c es :
  page_payload c es =
  level_section (max_rep c) (map e_rep es) ++ level_section (max_def c) (map e_def es)
  ++ plain_enc (c_prim c) (entry_vals es).
Proof.
  unfold page_payload, level_section. cbv zeta. pose proof (max_rep_le_max_def c) as Hle.
  destruct (col_required c) eqn:Hr.
  - apply col_required_max_def in Hr.
    replace (0 <? max_rep c) with false by lia. replace (0 <? max_def c) with false by lia. reflexivity.
  - apply col_required_false_max_def in Hr. replace (0 <? max_def c) with true by lia. reflexivity.
Qed.

Lemma page_payload_values_length c es :
  (length (plain_enc (c_prim c) (entry_vals es)) <= length (page_payload c es))%nat.
Proof. rewrite page_payload_sections, !app_length. lia. Qed.

Lemma entry_vals_cons e es :
  entry_vals (e :: es) = (match e_val e with Some v => [v] | None => [] end) ++ entry_vals es.
Proof. reflexivity. Qed.

Lemma entry_vals_app a b : entry_vals (a ++ b) = entry_vals a ++ entry_vals b.
Proof. unfold entry_vals. apply flat_map_app. Qed.

Definition entry_wf (c : col) (e : entry) : Prop :=
  entry_levels_ok c e = true /\
  match e_val e with Some v => prim_ok (c_prim c) v = true | None => True end.

Definition first_rep0 (es : list entry) : Prop :=
  match es with e :: _ => e_rep e = 0 | [] => True end.

(** the [+ 8]: a level section has at most one byte per entry, < 8 padding values
    included, and its length must be an int32 ([RleProofs.rle_roundtrip]) *)
Definition entries_ok (c : col) (es : list entry) : Prop :=
  es <> [] /\ Forall (entry_wf c) es /\ first_rep0 es /\
  N.of_nat (length es) + 8 <= 2 ^ 31 /\
  nlen (page_payload c es) < 2 ^ 31.

Lemma entry_levels_ok_inv c e :
  entry_levels_ok c e = true ->
  e_rep e <= max_rep c /\ e_def e <= max_def c /\
  match e_val e with Some _ => e_def e = max_def c | None => e_def e < max_def c end.
Proof.
  unfold entry_levels_ok. destruct (e_val e); lia.
Qed.

Lemma zip_entries_levels c es :
  Forall (fun e => entry_levels_ok c e = true) es ->
  zip_entries (map e_rep es) (map e_def es) (max_def c) (entry_vals es) = es.
Proof.
  induction 1 as [|e es He Hes IH]; [reflexivity|].
  apply entry_levels_ok_inv in He. destruct He as (_ & _ & He).
  rewrite entry_vals_cons. cbn [map zip_entries].
  destruct e as [r d ov]. cbn [e_rep e_def e_val] in *.
  destruct ov as [v|].
  - subst d. rewrite N.eqb_refl. cbn [app]. rewrite IH. reflexivity.
  - destruct (N.eqb_spec d (max_def c)) as [E|_]; [lia|]. cbn [app]. rewrite IH. reflexivity.
Qed.

Lemma count_max_def_levels c es :
  Forall (fun e => entry_levels_ok c e = true) es ->
  length (filter (fun d => d =? max_def c) (map e_def es)) = length (entry_vals es).
Proof.
  induction 1 as [|e es He Hes IH]; [reflexivity|].
  apply entry_levels_ok_inv in He. destruct He as (_ & _ & He).
  rewrite entry_vals_cons, app_length. cbn [map filter].
  destruct (e_val e) as [v|].
  - rewrite He, N.eqb_refl. cbn [length]. rewrite IH. reflexivity.
  - destruct (N.eqb_spec (e_def e) (max_def c)) as [E|_]; [lia|]. cbn [length]. exact IH.
Qed.

Lemma levels_zero {A} (f : A -> N) (l : list A) :
  Forall (fun x => f x <= 0) l -> repeat 0 (length l) = map f l.
Proof.
  induction 1 as [|x l Hx Hl IH]; [reflexivity|].
  cbn [length repeat map]. rewrite IH. f_equal. lia.
Qed.

Lemma entries_wf_levels c es :
  Forall (entry_wf c) es -> Forall (fun e => entry_levels_ok c e = true) es.
Proof. intros H. eapply Forall_impl; [|exact H]. intros e [He _]. exact He. Qed.

Lemma entries_wf_vals c es :
  Forall (entry_wf c) es -> Forall (leaf_ok (c_prim c)) (entry_vals es).
Proof.
  induction 1 as [|e es He Hes IH]; [constructor|].
  rewrite entry_vals_cons. apply Forall_app. split; [|exact IH].
  destruct He as [_ He]. destruct (e_val e) as [v|]; [|constructor].
  constructor; [exact He | constructor].
Qed.

Definition vals_ok (c : col) (es : list entry) : Prop :=
  Forall (fun e => match e_val e with Some v => prim_ok (c_prim c) v = true | None => True end) es.

Lemma shred_record_vals fs r :
  has_tyb (TGroup fs) r = true -> Forall2 vals_ok (columns fs) (shred_record fs r).
Proof.
  intros Hr. apply (shred_ty_cols vals_ok); [|exact Hr|reflexivity|reflexivity|lia].
  constructor.
  - intros pth rs p v r0 Hv _. constructor; [exact Hv|constructor].
  - intros pth rs p r0 d _ _. constructor; [exact I|constructor].
  - intros c a b Ha Hb. apply Forall_app. split; assumption.
Qed.

Lemma record_column_ok fs r i c :
  has_tyb (TGroup fs) r = true -> nth_error (columns fs) i = Some c ->
  let es := nth i (shred_record fs r) [] in
  Forall (entry_wf c) es /\ DremelProofs.col_ok 0 0 0 es.
Proof.
  intros Hr Hc es. pose proof (shred_record_nth fs r i c Hr Hc) as Hes. fold es in Hes.
  split.
  - pose proof (levels_bounded fs r i c es Hr Hc Hes) as Hlev.
    pose proof (Forall2_nth_error _ _ _ _ _ _ (shred_record_vals fs r Hr) Hc Hes) as Hvals. unfold vals_ok in Hvals.
    rewrite Forall_forall in *. intros e He. split; [apply Hlev|apply Hvals]; exact He.
  - apply nth_error_In in Hes.
    exact (proj1 (Forall_forall _ _) (shred_ty_nonempty (TGroup fs) r 0 0 0 Hr) es Hes).
Qed.

Lemma column_entries_ok fs recs i c :
  Forall (fun v => has_tyb (TGroup fs) v = true) recs -> nth_error (columns fs) i = Some c ->
  let es := column_entries fs i recs in
  Forall (entry_wf c) es /\ first_rep0 es /\ count_rep0 es = nlen recs /\ (recs <> [] -> es <> []).
Proof.
  intros Hrecs Hc. cbv zeta. induction Hrecs as [|r recs Hr Hrecs (IH1 & _ & IH2 & _)].
  - repeat split; [constructor|congruence].
  - destruct (record_column_ok fs r i c Hr Hc) as [Hwf Hcol]. cbv zeta in Hwf, Hcol.
    change (column_entries fs i (r :: recs)) with (nth i (shred_record fs r) [] ++ column_entries fs i recs).
    destruct (nth i (shred_record fs r) []) as [|e es']; [contradiction|].
    split; [apply Forall_app; split; assumption|]. split; [exact (proj1 Hcol)|]. split; [|discriminate].
    rewrite count_rep0_app, IH2, (col_ok_count_rep0 0 _ Hcol). unfold nlen. cbn [length]. lia.
Qed.

Lemma stats_entries_ok c es :
  es <> [] -> Forall (entry_wf c) es ->
  StatsProofs.entries_ok (c_prim c) (col_required c) (max_def c) es.
Proof.
  intros Hne Hes. split.
  - eapply Forall_impl; [|exact Hes]. intros e [Hl Hv].
    apply entry_levels_ok_inv in Hl. destruct Hl as (_ & _ & Hl).
    unfold entry_ok, is_value. destruct (e_val e) as [v|].
    + left. exists v. split; [reflexivity|]. split; [|exact Hv].
      rewrite Hl, N.ltb_irrefl. reflexivity.
    + right. split; [reflexivity|]. destruct (N.ltb_spec (e_def e) (max_def c)); [reflexivity|lia].
  - intros Hr. split; [apply col_required_max_def; exact Hr | exact Hne].
Qed.

(** ** The page header is within the ranges the thrift codec round-trips *)

Lemma filter_length_le' {A} (f : A -> bool) l : (length (filter f l) <= length l)%nat.
Proof. induction l as [|x l IH]; cbn [filter length]; [lia|]. destruct (f x); cbn [length]; lia. Qed.

Lemma pow31 : 2 ^ 31 = 2147483648. Proof. reflexivity. Qed.

Lemma pvals_sub (P : value -> Prop) maxdef es :
  Forall P (entry_vals es) -> Forall P (pvals maxdef es).
Proof.
  induction es as [|e es IH]; intros H; [constructor|].
  rewrite entry_vals_cons in H.
  apply Forall_app in H. destruct H as [He Hes]. rewrite pvals_cons. apply Forall_app. split; [|auto].
  destruct (e_val e) as [v|]; [|constructor]. destruct (is_value maxdef e); [exact He|constructor].
Qed.

Lemma leaf_ok_wf p v : leaf_ok p v -> wf_bytes (str_of v).
Proof.
  unfold leaf_ok. destruct v as [n|bs| |l|l]; cbn [str_of]; try constructor.
  destruct p; cbn [prim_ok]; try discriminate. apply wf_bytesb_spec.
Qed.

Lemma str_len_le_plain vals v : In v vals -> nlen (str_of v) <= nlen (plain_enc PString vals).
Proof.
  induction vals as [|a vals IH]; intros Hin; [destruct Hin|].
  rewrite plain_enc_cons by discriminate. rewrite nlen_app.
  destruct Hin as [->|Hin].
  - unfold plain_enc_val. rewrite nlen_app. lia.
  - specialize (IH Hin). lia.
Qed.

Lemma non_string_strs p vs :
  p <> PString -> Forall (leaf_ok p) vs -> Forall (fun v => nlen (str_of v) < 2 ^ 31) vs.
Proof.
  intros Hp. apply Forall_impl. intros v Hv. unfold leaf_ok in Hv.
  destruct v as [n|b| | |]; try (unfold nlen; rewrite pow31; cbn [str_of length]; lia).
  destruct p; cbn [prim_ok] in Hv; try discriminate. congruence.
Qed.

Lemma plain_strs p vs :
  Forall (leaf_ok p) vs -> nlen (plain_enc p vs) < 2 ^ 31 -> Forall (fun v => nlen (str_of v) < 2 ^ 31) vs.
Proof.
  intros Hty Hlen. destruct p eqn:Hp; try (apply (non_string_strs p); [rewrite Hp; discriminate | rewrite Hp; exact Hty]).
  apply Forall_forall. intros v Hv. pose proof (str_len_le_plain _ _ Hv). lia.
Qed.

Definition short_bytes (b : bytes) : Prop := wf_bytes b /\ nlen b < 2 ^ 31.

Lemma short_bytes_bin_ok b : short_bytes b -> bin_ok b = true.
Proof.
  intros [Hwf Hlen]. unfold bin_ok. apply andb_true_intro. split.
  - apply wf_bytesb_spec. exact Hwf.
  - unfold len_lim. change (2 ^ 31) with 2147483648 in Hlen. lia.
Qed.

Lemma le_enc_short p x : short_bytes (le_enc (prim_size p) x).
Proof.
  split; [apply le_enc_wf|]. unfold nlen. rewrite le_enc_length.
  change (2 ^ 31) with 2147483648. destruct p; cbn [prim_size]; lia.
Qed.

Lemma page_stats_statistics_ok p required maxdef es :
  nlen es < 2 ^ 31 ->
  Forall (fun v => short_bytes (str_of v)) (pvals maxdef es) ->
  statistics_ok (page_stats p required maxdef es) = true.
Proof.
  intros Hlen Hstr.
  assert (Hnull : opt_ok i64_ok (if required then None else Some (Z.of_N (pnils maxdef es))) = true).
  { destruct required; [reflexivity|]. cbn [opt_ok]. unfold pnils, nlen in *.
    pose proof (filter_length_le' (fun e => negb (is_value maxdef e)) es) as Hle.
    unfold i64_ok, in_range. change (2 ^ 31) with 2147483648 in Hlen. lia. }
  destruct (prim_cases p) as [Hp|[Hp|Hp]].
  - rewrite page_stats_numeric by exact Hp. cbv zeta.
    unfold statistics_ok.
    cbn [st_max st_min st_null_count st_distinct_count st_max_value st_min_value].
    rewrite Hnull. cbn [opt_ok andb].
    destruct (num_present p required (pvals maxdef es)); [|reflexivity].
    cbn [opt_ok]. rewrite !short_bytes_bin_ok by apply le_enc_short. reflexivity.
  - subst p. rewrite page_stats_string. cbv zeta.
    unfold statistics_ok.
    cbn [st_max st_min st_null_count st_distinct_count st_max_value st_min_value].
    rewrite Hnull. cbn [opt_ok andb].
    destruct (ss_seen (str_fold (pvals maxdef es))) eqn:Hseen; [|reflexivity].
    cbn [opt_ok].
    destruct (str_fold_ind short_bytes (pvals maxdef es)) as [Hmin Hmax];
      [split; [constructor | reflexivity] | exact Hstr |].
    rewrite !short_bytes_bin_ok by assumption. reflexivity.
  - subst p. rewrite page_stats_bool. unfold statistics_ok.
    cbn [st_max st_min st_null_count st_distinct_count st_max_value st_min_value].
    rewrite Hnull. reflexivity.
Qed.

Lemma entries_short_strings c es :
  Forall (leaf_ok (c_prim c)) (entry_vals es) -> nlen (page_payload c es) < 2 ^ 31 ->
  Forall (fun v => short_bytes (str_of v)) (entry_vals es).
Proof.
  intros Hok Hlen.
  assert (Hs : Forall (fun v => nlen (str_of v) < 2 ^ 31) (entry_vals es)).
  { apply (plain_strs (c_prim c)); [exact Hok|]. pose proof (page_payload_values_length c es). unfold nlen in *. lia. }
  rewrite Forall_forall in *. intros v Hv. split; [exact (leaf_ok_wf _ v (Hok v Hv)) | exact (Hs v Hv)].
Qed.

Definition page_hdr (compress : Z -> bytes -> bytes) (codec : Z) (c : col) (es : list entry) : page_header :=
  {| ph_type := PT_DATA_PAGE;
     ph_uncompressed_size := i32 (nlen (page_payload c es));
     ph_compressed_size := i32 (nlen (compress codec (page_payload c es)));
     ph_crc := None;
     ph_data := Some {| dph_num_values := i32 (nlen es);
                        dph_encoding := ENC_PLAIN;
                        dph_def_encoding := ENC_RLE;
                        dph_rep_encoding := ENC_RLE;
                        dph_statistics := Some (page_stats (c_prim c) (col_required c) (max_def c) es) |};
     ph_index := None; ph_dict := None; ph_data_v2 := None |}.

Lemma make_page_eq compress codec c es :
  make_page compress codec c es =
  {| pg_header := page_hdr compress codec c es;
     pg_header_bytes := enc_page_header (page_hdr compress codec c es);
     pg_body := compress codec (page_payload c es);
     pg_count := nlen es;
     pg_payload_len := nlen (page_payload c es) |}.
Proof. reflexivity. Qed.

Lemma page_hdr_ok compress codec c es :
  Forall (leaf_ok (c_prim c)) (entry_vals es) -> nlen es < 2 ^ 31 -> nlen (page_payload c es) < 2 ^ 31 ->
  page_header_ok (page_hdr compress codec c es) = true.
Proof.
  intros Hes Hn Hp. unfold page_header_ok, page_hdr, data_page_header_ok.
  cbn [ph_type ph_uncompressed_size ph_compressed_size ph_crc ph_data ph_dict ph_data_v2 opt_ok
       dph_num_values dph_encoding dph_def_encoding dph_rep_encoding dph_statistics].
  rewrite !i32_ok_i32, page_stats_statistics_ok; [reflexivity|exact Hn|].
  apply pvals_sub, (entries_short_strings c); assumption.
Qed.

Lemma Z_of_N_ltb0 n : (Z.of_N n <? 0)%Z = false.
Proof. lia. Qed.

Lemma nlen_sub_app {A} (a b : list A) : N.of_nat (length (a ++ b) - length b) = nlen a.
Proof. rewrite app_length, Nat.add_sub. reflexivity. Qed.

Lemma nlen_app_ltb {A} (a b : list A) : (N.of_nat (length (a ++ b)) <? nlen a) = false.
Proof. apply N.ltb_ge. fold (nlen (a ++ b)). rewrite nlen_app. apply N.le_add_r. Qed.

Lemma levels_decode {A} (f : A -> N) maxl (l : list A) rest :
  1 <= maxl <= 15 -> Forall (fun x => f x <= maxl) l -> N.of_nat (length l) + 8 <= 2 ^ 31 ->
  take_levels (FileSpec.bit_width maxl) (length l) maxl
    (rle_encode (Writer.bit_width maxl) (map f l) ++ rest) = inr (map f l, rest).
Proof.
  intros Hm Hl Hlen. rewrite <- (map_length f l) in *.
  assert (Hl' : Forall (fun v => v <= maxl) (map f l)) by (apply Forall_map; exact Hl).
  apply take_levels_encode; [apply bit_width_widths, Hm| |exact Hl'|exact Hlen].
  eapply Forall_impl; [|exact Hl']. intros v. apply bit_width_bound.
Qed.

Lemma level_section_decode {A} (f : A -> N) maxl (l : list A) rest :
  maxl <= 15 -> Forall (fun x => f x <= maxl) l -> N.of_nat (length l) + 8 <= 2 ^ 31 ->
  (if 0 <? maxl then
     take_levels (FileSpec.bit_width maxl) (length l) maxl (level_section maxl (map f l) ++ rest)
   else inr (repeat 0 (length l), level_section maxl (map f l) ++ rest)) =
  inr (map f l, rest).
Proof.
  intros Hm Hl Hlen. unfold level_section. destruct (N.ltb_spec 0 maxl) as [Hpos|Hz].
  - apply levels_decode; assumption || lia.
  - rewrite (levels_zero f); [reflexivity|].
    eapply Forall_impl; [|exact Hl]. cbv beta. intros x Hx. lia.
Qed.

(** for the repetition levels [check_page] renames the decoder's error *)
Lemma reps_decode c es rest :
  max_rep c <= 15 -> Forall (fun e => e_rep e <= max_rep c) es ->
  N.of_nat (length es) + 8 <= 2 ^ 31 ->
  (if 0 <? max_rep c then
     match take_levels (FileSpec.bit_width (max_rep c)) (length es) (max_rep c)
             (level_section (max_rep c) (map e_rep es) ++ rest) with
     | inr x => inr x
     | inl EPageDefLevels => inl EPageRepLevels
     | inl e => inl e
     end
   else inr (repeat 0 (length es), level_section (max_rep c) (map e_rep es) ++ rest)) =
  inr (map e_rep es, rest).
Proof.
  intros Hm Hes Hlen. pose proof (level_section_decode e_rep _ es rest Hm Hes Hlen) as H.
  destruct (0 <? max_rep c); rewrite H; reflexivity.
Qed.

Definition codec_ok (codec : Z) : Prop := In codec [CODEC_UNCOMPRESSED; CODEC_SNAPPY; CODEC_GZIP].

Section WithCodec.

Variable compress : Z -> bytes -> bytes.
Variable decompress : Z -> bytes -> option bytes.
Hypothesis Hcodec : forall c x, In c [CODEC_UNCOMPRESSED; CODEC_SNAPPY; CODEC_GZIP] ->
                                 decompress c (compress c x) = Some x.

Theorem check_page_make_page c codec off es rest :
  col_ok c -> entries_ok c es -> codec_ok codec ->
  nlen (compress codec (page_payload c es)) < 2 ^ 31 ->
  let p := make_page compress codec c es in
  check_page decompress c codec off (pg_header_bytes p ++ pg_body p ++ rest) =
  inr ({| pv_offset := off; pv_header_len := nlen (pg_header_bytes p); pv_header := pg_header p;
          pv_entries := es; pv_records := count_rep0 es; pv_stats_ok := true |},
       nlen (pg_header_bytes p) + nlen (pg_body p)).
Proof.
  intros [Hd Hr] (Hne & Hes & Hfirst & Hlen & Hpay) Hcd Hbody p. subst p.
  rewrite make_page_eq. cbn [pg_header pg_header_bytes pg_body].
  pose proof (entries_wf_levels c es Hes) as Hlev.
  assert (Hn : nlen es < 2 ^ 31).
  { unfold nlen. change (2 ^ 31) with 2147483648 in *. lia. }
  assert (Hreps : Forall (fun e => e_rep e <= max_rep c) es /\ Forall (fun e => e_def e <= max_def c) es).
  { split; (eapply Forall_impl; [|exact Hlev]); intros e He; apply entry_levels_ok_inv in He; tauto. }
  unfold check_page.
  rewrite dec_enc_page_header by (apply page_hdr_ok; [apply entries_wf_vals| |]; assumption).
  cbn [page_hdr ph_type ph_data ph_compressed_size ph_uncompressed_size
       dph_encoding dph_def_encoding dph_rep_encoding dph_num_values dph_statistics
       PT_DATA_PAGE ENC_PLAIN ENC_RLE Z.eqb Pos.eqb negb].
  set (hb := enc_page_header _). set (body := compress codec (page_payload c es)) in *.
  rewrite nlen_sub_app.
  rewrite !andb_false_r.
  rewrite <- Z_N_nat, !i32_small_to_N, !i32_small_neg by assumption. cbn [orb].
  rewrite !nlen_to_nat, nlen_app_ltb, firstn_app_exact. unfold body at 1. rewrite Hcodec by exact Hcd.
  rewrite N.eqb_refl. cbn [negb].
  destruct (Nat.eqb_spec (length es) 0) as [Hz|_].
  { destruct es; [congruence | discriminate Hz]. }
  rewrite page_payload_sections, reps_decode, (level_section_decode e_def) by tauto.
  assert (Hf : match map e_rep es with [] => true | r0 :: _ => r0 =? 0 end = true).
  { destruct es as [|e es']; [reflexivity|]. cbn [map]. cbn [first_rep0] in Hfirst.
    rewrite Hfirst. reflexivity. }
  rewrite Hf. cbn [negb].
  rewrite count_max_def_levels by exact Hlev.
  rewrite plain_strict_roundtrip.
  - rewrite zip_entries_levels by exact Hlev.
    rewrite page_stats_sound by (apply stats_entries_ok; assumption).
    reflexivity.
  - apply entries_wf_vals. exact Hes.
  - intros _. eapply Forall_impl; [|apply (entries_short_strings c es (entries_wf_vals c es Hes) Hpay)].
    cbv beta. intros v [_ Hv]. change (2 ^ 31) with 2147483648 in Hv.
    change (2 ^ 32) with 4294967296. lia.
Qed.

End WithCodec.

(** optional int32 column, one value and one null *)
Example check_page_make_page_tiny :
  let cmp : Z -> bytes -> bytes := fun _ b => b in
  let dcmp : Z -> bytes -> option bytes := fun _ b => Some b in
  let c := {| c_path := [[97]]; c_reps := [Opt]; c_prim := PInt32 |} in
  let es := [ {| e_rep := 0; e_def := 1; e_val := Some (VNum 5) |};
              {| e_rep := 0; e_def := 0; e_val := None |} ] in
  let p := make_page cmp 0%Z c es in
  check_page dcmp c 0%Z 17 (pg_header_bytes p ++ pg_body p ++ [1; 2; 3]) =
  inr ({| pv_offset := 17; pv_header_len := nlen (pg_header_bytes p); pv_header := pg_header p;
          pv_entries := es; pv_records := count_rep0 es; pv_stats_ok := true |},
       nlen (pg_header_bytes p) + nlen (pg_body p)).
Proof. vm_compute. reflexivity. Qed.

Print Assumptions check_page_make_page.
