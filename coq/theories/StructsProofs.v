(** * StructsProofs: property C15 — the struct that `parquetgen -parquet`
    regenerates from the footer schema of a file ([Structs.struct_of_schema])
    parses ([Parse.parse_root]) to the shape of that file: same columns,
    nesting, optionality and physical types.

    Hypotheses on the shape (the examples at the end show what goes wrong without some of them):
    no repeated field, every group has a field, leaf types are the six
    physical ones (uint32/uint64 come back as int32/int64: converted types are
    ignored), sibling names are distinct, the [title] of every name is
    exported and no name is "-", and the [title]s of the group names (at all
    depths) are pairwise distinct and distinct from that of the root struct.

    Names are taken through [title] as structs.go does, so lower-case column
    names are covered ([regen_ok]); [regen_ok_upper] is the instance where
    every name starts with A-Z.  (The parser model does not check Go's rule
    that the field names of one struct differ: sibling leaves "a" and "A"
    satisfy [regen_ok] in the model although the generated Go file would not
    compile; [regen_ok_upper] has no such case.) *)
From Coq Require Import List NArith ZArith Lia Bool Arith PeanoNat.
From Coq Require Import ZifyN ZifyNat ZifyBool.
From PQ Require Import Bytes Schema Dremel DremelProofs MetaTypes Writer FileSpec SchemaProofs.
From PQ Require Import Parse Structs ParseProofs.
Import ListNotations.
Local Open Scope N_scope.

(** ** The declarations [get_struct] produces *)

Definition go_name (p : prim) : bytes :=
  match p with
  | PInt32 | PUint32 => [105;110;116;51;50]
  | PInt64 | PUint64 => [105;110;116;54;52]
  | PFloat32 => [102;108;111;97;116;51;50]
  | PFloat64 => [102;108;111;97;116;54;52]
  | PBool => [98;111;111;108]
  | PString => [115;116;114;105;110;103]
  end.

Definition wrap (rp : rept) (g : gotype) : gotype := match rp with Opt => GPtr g | _ => g end.

(** `Name *type \`parquet:"name"\``: a repeated field comes back as a required one *)
Definition fdecl_of (f : field) : fdecl :=
  FD [title (fname f)]
     (wrap (frep f) (GBase (match fty f with TLeaf p => go_name p | TGroup _ => title (fname f) end)))
     (Some (fname f)).

Fixpoint decls_ty (n : bytes) (t : ty) {struct t} : decls :=
  match t with
  | TLeaf _ => []
  | TGroup fs =>
      (title n, map fdecl_of fs)
      :: (fix go (fs : list (bytes * rept * ty)) : decls :=
            match fs with
            | [] => []
            | (n', _, t') :: fs' => decls_ty n' t' ++ go fs'
            end) fs
  end.

Fixpoint decls_fields (fs : list field) : decls :=
  match fs with
  | [] => []
  | (n, _, t) :: fs' => decls_ty n t ++ decls_fields fs'
  end.

Lemma decls_ty_group n fs : decls_ty n (TGroup fs) = (title n, map fdecl_of fs) :: decls_fields fs.
Proof. reflexivity. Qed.

Lemma decls_fields_cons n rp t fs : decls_fields ((n, rp, t) :: fs) = decls_ty n t ++ decls_fields fs.
Proof. reflexivity. Qed.

Lemma go_type_of_prim p : go_type_of (prim_type p) = Some (go_name p).
Proof. destruct p; reflexivity. Qed.

Lemma field_decl_leaf n rp p : field_decl (sleaf n rp p) = fdecl_of (n, rp, TLeaf p).
Proof.
  unfold field_decl, fdecl_of, sleaf. cbn [se_name se_type se_repetition fname frep fty fst snd].
  rewrite go_type_of_prim. destruct rp; reflexivity.
Qed.

Lemma field_decl_group n rp k (kids : list field) : field_decl (sgroup n rp k) = fdecl_of (n, rp, TGroup kids).
Proof.
  unfold field_decl, fdecl_of, sgroup. cbn [se_name se_type se_repetition fname frep fty fst snd].
  destruct rp; reflexivity.
Qed.

(** the loop of [get_struct], with the recursive call as a parameter *)
Definition gs_go (rec : bytes -> nat -> list schema_element -> option (nat * decls)) (name : bytes) :=
  fix go (i : nat) (els : list schema_element) (fields : list fdecl) (nested : decls) (consumed : nat)
    : option (nat * decls) :=
    match i with
    | O => Some (consumed, (title name, fields) :: nested)
    | S i' =>
        match els with
        | [] => None
        | ch :: rest =>
            let fields' := fields ++ [field_decl ch] in
            match se_num_children ch with
            | Some c =>
                if (0 <? c)%Z then
                  match rec (se_name ch) (Z.to_nat c) rest with
                  | Some (n, ds) => go i' (skipn n rest) fields' (nested ++ ds) (S (consumed + n))
                  | None => None
                  end
                else go i' rest fields' nested (S consumed)
            | None => go i' rest fields' nested (S consumed)
            end
        end
    end.

Lemma get_struct_S fu name k els :
  get_struct (S fu) name k els = gs_go (get_struct fu) name k els [] [] 0%nat.
Proof. reflexivity. Qed.

Lemma gs_go_O rec name els fields nested c :
  gs_go rec name O els fields nested c = Some (c, (title name, fields) :: nested).
Proof. reflexivity. Qed.

Lemma gs_go_leaf rec name i n rp p rest fields nested c :
  gs_go rec name (S i) (sleaf n rp p :: rest) fields nested c =
  gs_go rec name i rest (fields ++ [fdecl_of (n, rp, TLeaf p)]) nested (S c).
Proof. rewrite <- field_decl_leaf. reflexivity. Qed.

Lemma gs_go_group rec name i n rp (kids : list field) rest fields nested c :
  kids <> [] ->
  gs_go rec name (S i) (sgroup n rp (length kids) :: rest) fields nested c =
  match rec n (length kids) rest with
  | Some (m, ds) => gs_go rec name i (skipn m rest) (fields ++ [fdecl_of (n, rp, TGroup kids)])
                      (nested ++ ds) (S (c + m))
  | None => None
  end.
Proof.
  intros Hne. rewrite <- (field_decl_group n rp (length kids) kids).
  cbn [gs_go]. cbn [sgroup se_num_children se_name].
  rewrite num_children_pos, num_children_nat by (destruct kids; [congruence|cbn [length]; lia]).
  reflexivity.
Qed.

Definition gs_stmt (fu : nat) : Prop :=
  forall name fs rest,
    Forall (fun f : field => ty_okb (snd f) = true) fs ->
    (length (pre_fields fs) < fu)%nat ->
    get_struct fu name (length fs) (pre_fields fs ++ rest) =
    Some (length (pre_fields fs), decls_ty name (TGroup fs)).

Lemma gs_go_fields fu name : gs_stmt fu ->
  forall fs rest fields nested c,
    Forall (fun f : field => ty_okb (snd f) = true) fs ->
    (length (pre_fields fs) <= fu)%nat ->
    gs_go (get_struct fu) name (length fs) (pre_fields fs ++ rest) fields nested c =
    Some ((c + length (pre_fields fs))%nat,
          (title name, fields ++ map fdecl_of fs) :: nested ++ decls_fields fs).
Proof.
  intros HP. induction fs as [|[[n rp] t] fs IH]; intros rest fields nested c Hok Hlen.
  - cbn [length pre_fields app map decls_fields]. rewrite gs_go_O, !app_nil_r, Nat.add_0_r. reflexivity.
  - pose proof (Forall_inv Hok) as Hok1. pose proof (Forall_inv_tail Hok) as Hok'. cbn [snd] in Hok1.
    rewrite pre_fields_cons, app_length in *. rewrite <- app_assoc.
    cbn [length map]. rewrite decls_fields_cons.
    destruct t as [p|kids].
    + cbn [pre_ty app length] in *. rewrite gs_go_leaf, (IH rest _ nested (S c) Hok') by lia.
      rewrite <- app_assoc. cbn [app decls_ty]. do 2 f_equal. lia.
    + rewrite pre_ty_group in *. cbn [app length] in *.
      apply ty_okb_group in Hok1. destruct Hok1 as [Hkne Hkok].
      rewrite (gs_go_group _ name (length fs) n rp kids _ fields nested c Hkne).
      rewrite (HP n kids (pre_fields fs ++ rest) Hkok) by lia.
      rewrite skipn_app, skipn_all, Nat.sub_diag. cbn [app skipn].
      rewrite (IH rest _ _ _ Hok') by lia.
      rewrite <- !app_assoc. cbn [app]. do 2 f_equal. lia.
Qed.

Lemma get_struct_spec : forall fu, gs_stmt fu.
Proof.
  induction fu as [|fu IH]; intros name fs rest Hok Hlen; [lia|].
  rewrite get_struct_S, (gs_go_fields fu name IH fs rest [] [] 0%nat Hok) by lia.
  reflexivity.
Qed.

Lemma struct_of_schema_pre root fs :
  Forall (fun f : field => ty_okb (snd f) = true) fs ->
  struct_of_schema root (sroot (length fs) :: pre_fields fs) = Some (decls_ty root (TGroup fs)).
Proof.
  intros Hok. unfold struct_of_schema. cbn [sroot se_num_children]. rewrite num_children_nat.
  rewrite <- (app_nil_r (pre_fields fs)) at 2.
  rewrite (get_struct_spec _ root fs [] Hok); [reflexivity|]. cbn [length]. lia.
Qed.

(** ** Hypotheses on the shape *)

Definition name_okb (n : bytes) : bool := negb (is_private (title n)) && negb (bytes_eqb n dash).

Definition prim_plain (p : prim) : bool :=
  match p with PUint32 | PUint64 => false | _ => true end.

Fixpoint regen_tyb (t : ty) : bool :=
  match t with
  | TLeaf p => prim_plain p
  | TGroup fs =>
      forallb (fun f : field => name_okb (fst (fst f)) && negb (is_rep (snd (fst f))) && regen_tyb (snd f)) fs
  end.

Definition field_ok (f : field) : Prop :=
  name_okb (fname f) = true /\ is_rep (frep f) = false /\ regen_tyb (fty f) = true.

Lemma regen_tyb_group fs : regen_tyb (TGroup fs) = true -> Forall field_ok fs.
Proof.
  cbn [regen_tyb]. intros H. rewrite forallb_forall in H. apply Forall_forall. intros f Hin.
  pose proof (H f Hin) as Hf. apply andb_prop in Hf. destruct Hf as [Hf H3].
  apply andb_prop in Hf. destruct Hf as [H1 H2]. apply negb_true_iff in H2.
  unfold field_ok, fname, frep, fty. auto.
Qed.

Fixpoint gnames_ty (n : bytes) (t : ty) {struct t} : list bytes :=
  match t with
  | TLeaf _ => []
  | TGroup fs =>
      n :: (fix go (fs : list (bytes * rept * ty)) : list bytes :=
              match fs with
              | [] => []
              | (n', _, t') :: fs' => gnames_ty n' t' ++ go fs'
              end) fs
  end.

Fixpoint gnames (fs : list field) : list bytes :=
  match fs with
  | [] => []
  | (n, _, t) :: fs' => gnames_ty n t ++ gnames fs'
  end.

Lemma gnames_ty_group n fs : gnames_ty n (TGroup fs) = n :: gnames fs.
Proof. reflexivity. Qed.

Lemma decls_names_ty t : forall n, map fst (decls_ty n t) = map title (gnames_ty n t).
Proof.
  induction t as [p|fs IH] using ty_ind'; intros n; [reflexivity|].
  rewrite decls_ty_group, gnames_ty_group. cbn [map fst]. f_equal.
  induction IH as [|[[n' rp'] t'] fs Ht' Hfs IHfs]; [reflexivity|].
  cbn [decls_fields gnames]. rewrite !map_app, IHfs. cbn [snd] in Ht'. rewrite Ht'. reflexivity.
Qed.

Lemma decls_names fs : map fst (decls_fields fs) = map title (gnames fs).
Proof.
  pose proof (decls_names_ty (TGroup fs) []) as H. rewrite decls_ty_group, gnames_ty_group in H.
  cbn [map fst] in H. congruence.
Qed.

(** ** Parsing the regenerated declarations *)

Lemma prim_name_private n p : prim_of_name n = Some p -> is_private n = true.
Proof.
  unfold prim_of_name.
  repeat (destruct (bytes_eqb n _) eqn:E; [apply bytes_eqb_eq in E; subst n; reflexivity|clear E]).
  discriminate.
Qed.

Lemma prim_of_exported n : is_private n = false -> prim_of_name n = None.
Proof.
  intros H. destruct (prim_of_name n) as [p|] eqn:E; [|reflexivity].
  apply prim_name_private in E. congruence.
Qed.

Lemma prim_of_go_name p : prim_plain p = true -> prim_of_name (go_name p) = Some p.
Proof. destruct p; intros H; try discriminate; reflexivity. Qed.

Lemma name_okb_inv n : name_okb n = true -> is_private (title n) = false /\ bytes_eqb n dash = false.
Proof. unfold name_okb. intros H. apply andb_prop in H. split; apply negb_true_iff, H. Qed.

Lemma raw_of_fdecl n rp t :
  name_okb n = true -> is_rep rp = false ->
  raw_of (fdecl_of (n, rp, t)) =
  RField {| rf_name := title n; rf_col := n; rf_rep := rp;
            rf_type := match t with TLeaf p => go_name p | TGroup _ => title n end;
            rf_embedded := false |}.
Proof.
  intros Hn Hrp. destruct (name_okb_inv n Hn) as [H1 H2].
  unfold raw_of, fdecl_of. cbn [fd_names fd_type fd_tag fname frep fty fst snd].
  rewrite H1, H2. destruct rp; [reflexivity|reflexivity|discriminate].
Qed.

Lemma lookup_nodup ds : forall k v, NoDup (map fst ds) -> In (k, v) ds -> lookup ds k = Some v.
Proof.
  induction ds as [|[k0 v0] r IH]; intros k v Hnd Hin; [contradiction|].
  cbn [map fst] in Hnd. apply NoDup_cons_iff in Hnd. destruct Hnd as [Hk0 Hnd].
  rewrite lookup_cons. destruct Hin as [Heq|Hin].
  - injection Heq as -> ->. rewrite bytes_eqb_refl. reflexivity.
  - destruct (bytes_eqb_spec k0 k) as [->|_]; [|exact (IH k v Hnd Hin)]. exfalso. apply Hk0.
    apply in_map_iff. exists (k, v). split; [reflexivity|exact Hin].
Qed.

Section ParseBack.
  Variable ds : decls.
  Hypothesis Hnd : NoDup (map fst ds).

  Lemma children_regen : forall fuel fs,
    Forall field_ok fs -> incl (decls_fields fs) ds -> (length (decls_fields fs) < fuel)%nat ->
    exists pf, children fuel ds (map fdecl_of fs) = Some pf /\ map shape_of pf = fs.
  Proof.
    induction fuel as [|fu IHfu]; intros fs Hok Hinc Hlen; [lia|].
    induction fs as [|[[n rp] t] fs IHfs].
    - exists []. split; reflexivity.
    - pose proof (Forall_inv Hok) as (Hn & Hrp & Ht). pose proof (Forall_inv_tail Hok) as Hok'.
      cbn [fname frep fty fst snd] in Hn, Hrp, Ht.
      rewrite decls_fields_cons in Hinc, Hlen. rewrite app_length in Hlen.
      destruct (IHfs Hok') as (tail & Htail & Hshape).
      { intros x Hx. apply Hinc. apply in_or_app. right. exact Hx. }
      { lia. }
      cbn [map]. rewrite children_cons, Htail. unfold field_items.
      rewrite (raw_of_fdecl n rp t Hn Hrp). cbn [rf_type rf_embedded rf_name rf_col rf_rep].
      destruct t as [p|kids].
      + cbn [regen_tyb] in Ht. rewrite (prim_of_go_name p Ht).
        exists (PLeaf (title n) n rp p :: tail). split; [reflexivity|].
        cbn [map shape_of]. rewrite Hshape. reflexivity.
      + rewrite (prim_of_exported _ (proj1 (name_okb_inv n Hn))).
        rewrite decls_ty_group in Hinc, Hlen. cbn [length] in Hlen.
        assert (Hl : lookup ds (title n) = Some (map fdecl_of kids)).
        { apply (lookup_nodup ds _ _ Hnd). apply Hinc. left. reflexivity. }
        rewrite Hl.
        destruct (IHfu kids (regen_tyb_group kids Ht)) as (pk & Hpk & Hks).
        { intros x Hx. apply Hinc. right. apply in_or_app. left. exact Hx. }
        { lia. }
        rewrite Hpk. exists (PGroup (title n) n rp (title n) pk :: tail). split; [reflexivity|].
        cbn [map shape_of]. rewrite Hshape, Hks. reflexivity.
  Qed.
End ParseBack.

Lemma parse_regen root fs :
  regen_tyb (TGroup fs) = true ->
  NoDup (title root :: map title (gnames fs)) ->
  option_map (map shape_of) (parse_root (decls_ty root (TGroup fs)) (title root)) = Some fs.
Proof.
  intros Hreg Hnd. rewrite decls_ty_group. unfold parse_root.
  rewrite lookup_cons, bytes_eqb_refl.
  destruct (children_regen ((title root, map fdecl_of fs) :: decls_fields fs)) with
    (fuel := S (length ((title root, map fdecl_of fs) :: decls_fields fs))) (fs := fs)
    as (pf & Hpf & Hshape).
  - cbn [map fst]. rewrite decls_names. exact Hnd.
  - exact (regen_tyb_group fs Hreg).
  - apply incl_tl. apply incl_refl.
  - cbn [length]. lia.
  - rewrite Hpf. cbn [option_map]. rewrite Hshape. reflexivity.
Qed.

(** ** C15 *)

Theorem regen_ok root fs :
  ty_okb (TGroup fs) = true ->                          (* every group has a field *)
  names_okb (TGroup fs) = true ->                       (* sibling names are distinct *)
  regen_tyb (TGroup fs) = true ->                       (* no Rep, plain prims, good names *)
  NoDup (title root :: map title (gnames fs)) ->        (* distinct struct type names *)
  exists ds,
    struct_of_schema root (schema_of (columns fs)) = Some ds /\
    option_map (map shape_of) (parse_root ds (title root)) = Some fs.
Proof.
  intros Hok Hnm Hreg Hnd. exists (decls_ty root (TGroup fs)). split.
  - rewrite (schema_of_pre fs Hok Hnm). apply struct_of_schema_pre.
    apply ty_okb_group in Hok. tauto.
  - exact (parse_regen root fs Hreg Hnd).
Qed.

(** *** The statement with upper-case names *)

Definition upperb (n : bytes) : bool :=
  match n with c :: _ => (65 <=? c) && (c <=? 90) | [] => false end.

Lemma upper_title n : upperb n = true -> title n = n.
Proof.
  destruct n as [|c r]; [discriminate|]. cbn [upperb title]. intros H.
  destruct ((97 <=? c) && (c <=? 122)) eqn:E; [lia|reflexivity].
Qed.

Lemma upper_exported n : upperb n = true -> is_private n = false.
Proof. destruct n as [|c r]; [discriminate|]. cbn [upperb is_private]. intros H. lia. Qed.

Lemma upper_name_ok n : upperb n = true -> name_okb n = true.
Proof.
  intros H. unfold name_okb. rewrite (upper_title n H), (upper_exported n H). cbn [negb andb].
  apply negb_true_iff. apply bytes_eqb_neq. intros ->. discriminate.
Qed.

Fixpoint upper_tyb (t : ty) : bool :=
  match t with
  | TLeaf p => prim_plain p
  | TGroup fs =>
      forallb (fun f : field => upperb (fst (fst f)) && negb (is_rep (snd (fst f))) && upper_tyb (snd f)) fs
  end.

Lemma upper_regen t : upper_tyb t = true -> regen_tyb t = true.
Proof.
  induction t as [p|fs IH] using ty_ind'; [auto|].
  cbn [upper_tyb regen_tyb]. intros H. rewrite forallb_forall in H. apply forallb_forall.
  intros f Hin. rewrite Forall_forall in IH. pose proof (H f Hin) as Hf.
  apply andb_prop in Hf. destruct Hf as [Hf H3]. apply andb_prop in Hf. destruct Hf as [H1 H2].
  rewrite (upper_name_ok _ H1), H2, (IH f Hin H3). reflexivity.
Qed.

Lemma upper_gnames t : forall n, upperb n = true -> upper_tyb t = true ->
  map title (gnames_ty n t) = gnames_ty n t.
Proof.
  induction t as [p|fs IH] using ty_ind'; intros n Hn Ht; [reflexivity|].
  rewrite gnames_ty_group. cbn [map]. rewrite (upper_title n Hn). f_equal.
  cbn [upper_tyb] in Ht. rewrite forallb_forall in Ht.
  induction IH as [|[[n' rp'] t'] fs Ht' Hfs IHfs]; [reflexivity|].
  cbn [gnames]. rewrite map_app. pose proof (Ht _ (or_introl eq_refl)) as Hf.
  cbn [fst snd] in Hf, Ht'. apply andb_prop in Hf. destruct Hf as [Hf H3].
  apply andb_prop in Hf. destruct Hf as [H1 H2].
  rewrite (Ht' n' H1 H3), IHfs; [reflexivity|]. intros f Hin. apply Ht. right. exact Hin.
Qed.

Corollary regen_ok_upper root fs :
  ty_okb (TGroup fs) = true -> names_okb (TGroup fs) = true ->
  upper_tyb (TGroup fs) = true -> upperb root = true ->
  NoDup (root :: gnames fs) ->
  exists ds,
    struct_of_schema root (schema_of (columns fs)) = Some ds /\
    option_map (map shape_of) (parse_root ds root) = Some fs.
Proof.
  intros Hok Hnm Hup Hroot Hnd.
  pose proof (upper_gnames (TGroup fs) root Hroot Hup) as Hg.
  rewrite gnames_ty_group in Hg. cbn [map] in Hg.
  destruct (regen_ok root fs Hok Hnm (upper_regen _ Hup)) as (ds & H1 & H2).
  - rewrite Hg. exact Hnd.
  - exists ds. rewrite (upper_title root Hroot) in H2. split; [exact H1|exact H2].
Qed.

Definition regen_hypb (root : bytes) (fs : list field) : bool :=
  ty_okb (TGroup fs) && names_okb (TGroup fs) && regen_tyb (TGroup fs)
  && nodupb (title root :: map title (gnames fs)).

Corollary regen_ok_bool root fs :
  regen_hypb root fs = true ->
  exists ds,
    struct_of_schema root (schema_of (columns fs)) = Some ds /\
    option_map (map shape_of) (parse_root ds (title root)) = Some fs.
Proof.
  unfold regen_hypb. intros H.
  apply andb_prop in H. destruct H as [H H4]. apply andb_prop in H. destruct H as [H H3].
  apply andb_prop in H. destruct H as [H1 H2].
  apply regen_ok; [exact H1|exact H2|exact H3|apply nodupb_NoDup; exact H4].
Qed.

Definition regen (root : bytes) (fs : list field) : option (list field) :=
  match struct_of_schema root (schema_of (columns fs)) with
  | Some ds => option_map (map shape_of) (parse_root ds (title root))
  | None => None
  end.

Lemma regen_ok_regen root fs : regen_hypb root fs = true -> regen root fs = Some fs.
Proof.
  intros H. destruct (regen_ok_bool root fs H) as (ds & H1 & H2). unfold regen. rewrite H1. exact H2.
Qed.

Module Examples.
  (** id int64; name *string; hobby *{ kind string; level *int32; inner { z float64 } };
      score float32; ok *bool — lower-case column names, as in real files *)
  Definition fs1 : list field :=
    [ ([105;100], Req, TLeaf PInt64); ([110;97;109;101], Opt, TLeaf PString);
      ([104;111;98;98;121], Opt,
       TGroup [ ([107;105;110;100], Req, TLeaf PString); ([108;101;118;101;108], Opt, TLeaf PInt32);
                ([105;110;110;101;114], Req, TGroup [([122], Req, TLeaf PFloat64)]) ]);
      ([115;99;111;114;101], Req, TLeaf PFloat32); ([111;107], Opt, TLeaf PBool) ].

  Example regen_doc : regen_hypb [114;111;119] fs1 = true /\ regen [114;111;119] fs1 = Some fs1.
  Proof. vm_compute. split; reflexivity. Qed.

  (** type Row struct { Id int64 `parquet:"id"`; Name *string `parquet:"name"`; Hobby *Hobby ... } ... *)
  Example regen_doc_decls :
    struct_of_schema [114;111;119] (schema_of (columns fs1)) =
    Some [ ([82;111;119],
            [ FD [[73;100]] (GBase [105;110;116;54;52]) (Some [105;100]);
              FD [[78;97;109;101]] (GPtr (GBase [115;116;114;105;110;103])) (Some [110;97;109;101]);
              FD [[72;111;98;98;121]] (GPtr (GBase [72;111;98;98;121])) (Some [104;111;98;98;121]);
              FD [[83;99;111;114;101]] (GBase [102;108;111;97;116;51;50]) (Some [115;99;111;114;101]);
              FD [[79;107]] (GPtr (GBase [98;111;111;108])) (Some [111;107]) ]);
           ([72;111;98;98;121],
            [ FD [[75;105;110;100]] (GBase [115;116;114;105;110;103]) (Some [107;105;110;100]);
              FD [[76;101;118;101;108]] (GPtr (GBase [105;110;116;51;50])) (Some [108;101;118;101;108]);
              FD [[73;110;110;101;114]] (GBase [73;110;110;101;114]) (Some [105;110;110;101;114]) ]);
           ([73;110;110;101;114], [ FD [[90]] (GBase [102;108;111;97;116;54;52]) (Some [122]) ]) ].
  Proof. vm_compute. reflexivity. Qed.

  (** outside the property: converted types are ignored, a uint32 / uint64
      column comes back as int32 / int64 *)
  Example regen_uint :
    regen [82] [([65], Req, TLeaf PUint32); ([66], Opt, TLeaf PUint64)]
    = Some [([65], Req, TLeaf PInt32); ([66], Opt, TLeaf PInt64)].
  Proof. vm_compute. reflexivity. Qed.

  (** outside the property: structs.field only tests for OPTIONAL, a repeated
      field or group comes back as a required one *)
  Example regen_rep :
    regen [82] [([65], Rep, TLeaf PInt32); ([66], Rep, TGroup [([67], Req, TLeaf PInt32)])]
    = Some [([65], Req, TLeaf PInt32); ([66], Req, TGroup [([67], Req, TLeaf PInt32)])].
  Proof. vm_compute. reflexivity. Qed.

  (** why group names must be distinct: two groups X under different parents
      become two declarations `type X struct`; the first one wins (and the Go
      file does not compile) *)
  Definition fs2 : list field :=
    [ ([65], Req, TGroup [ ([88], Req, TGroup [([80], Req, TLeaf PInt32)]) ]);
      ([66], Req, TGroup [ ([88], Req, TGroup [([81], Opt, TLeaf PString)]) ]) ].

  Example regen_same_group_name :
    ty_okb (TGroup fs2) = true /\ names_okb (TGroup fs2) = true /\ regen_tyb (TGroup fs2) = true /\
    regen_hypb [82] fs2 = false /\
    regen [82] fs2 =
    Some [ ([65], Req, TGroup [ ([88], Req, TGroup [([80], Req, TLeaf PInt32)]) ]);
           ([66], Req, TGroup [ ([88], Req, TGroup [([80], Req, TLeaf PInt32)]) ]) ].
  Proof. vm_compute. repeat split; reflexivity. Qed.

  Example regen_same_title :
    let fs := [ ([97], Req, TGroup [([88], Req, TLeaf PInt32)]);
                ([65], Req, TGroup [([89], Req, TLeaf PInt64)]) ] in
    regen_hypb [82] fs = false /\
    regen [82] fs = Some [ ([97], Req, TGroup [([88], Req, TLeaf PInt32)]);
                           ([65], Req, TGroup [([88], Req, TLeaf PInt32)]) ].
  Proof. vm_compute. split; reflexivity. Qed.

  (** a group named like the root struct: `type R struct { A int32; R R }` *)
  Example regen_group_named_root :
    let fs := [ ([65], Req, TLeaf PInt32); ([82], Req, TGroup [([66], Req, TLeaf PInt32)]) ] in
    regen_hypb [82] fs = false /\ regen [82] fs = None /\ regen [114] fs = None.
  Proof. vm_compute. repeat split; reflexivity. Qed.

  (** why names matter: columns "_x" (field `_x`, unexported) and "-" (tag "-")
      are dropped by the parser *)
  Example regen_bad_names :
    let fs := [ ([95;120], Req, TLeaf PInt32); ([45], Req, TLeaf PInt32); ([66], Req, TLeaf PInt32) ] in
    regen_hypb [82] fs = false /\ regen [82] fs = Some [([66], Req, TLeaf PInt32)].
  Proof. vm_compute. split; reflexivity. Qed.

  Example regen_upper :
    let fs := [ ([65], Req, TLeaf PInt32);
                ([66], Opt, TGroup [ ([67], Opt, TLeaf PString); ([68], Req, TGroup [([69], Req, TLeaf PBool)]) ]);
                ([70], Opt, TLeaf PFloat64) ] in
    regen [82] fs = Some fs.
  Proof. apply regen_ok_regen. vm_compute. reflexivity. Qed.
End Examples.

(** the field that structs.go regenerates from a schema element carries the
    column name as its tag *)
Lemma field_decl_tag e : fd_tag (field_decl e) = Some (se_name e).
Proof. reflexivity. Qed.

Print Assumptions regen_ok.
Print Assumptions regen_ok_upper.
Print Assumptions regen_ok_bool.
