(** * ConformantLevels: the library's level decoder ([Rle.rle_read]) agrees
    with the specification decoder ([RleSpec.hybrid_decode_framed]) on every
    framed stream the specification decoder accepts.  This is
    [RleDecProofs.rle_read_decodes] read on the stream as it lies in a page,
    and the two examples that show its side conditions are needed. *)
From Coq Require Import List NArith ZArith Lia Bool Arith PeanoNat.
From Coq Require Import ZifyN ZifyNat ZifyBool.
From PQ Require Import Bytes Varint VarintProofs Bitpack BitpackProofs RleSpec RleSpecProofs Rle RleDecProofs.
Import ListNotations.
Local Open Scope N_scope.

Lemma runs_small_of_length rs : nlen (runs_values rs) < 2 ^ 63 -> Forall run_small rs.
Proof.
  induction rs as [|r rs IH]; intros Hlen; [constructor|].
  rewrite runs_values_cons, nlen_app in Hlen. constructor.
  - destruct r as [c v|gs]; cbn [run_small]; [|exact I].
    cbn [run_values] in Hlen. unfold nlen in Hlen. rewrite repeat_length in Hlen. lia.
  - apply IH. lia.
Qed.

Theorem rle_read_agrees w bs rs rest :
  In w widths -> wf_bytes bs -> hybrid_decode_framed w bs = Some (rs, rest) ->
  le_dec (firstn 4 bs) < 2 ^ 31 -> Forall run_small rs ->
  exists body,
    bs = firstn 4 bs ++ body ++ rest /\ length (firstn 4 bs) = 4%nat /\
    nlen body = le_dec (firstn 4 bs) /\ hybrid_decode w body = Some rs /\
    rle_read w bs = Ok (runs_values rs, (4 + length body)%nat).
Proof.
  intros Hw Hwf Hdec Hlen Hsmall.
  destruct (hybrid_decode_framed_inv w bs rs rest Hdec) as (body & Hbs & H4 & Hbody & Hrs).
  exists body. repeat split; try assumption.
  rewrite Hbs in Hwf. apply wf_bytes_app in Hwf. destruct Hwf as [Hwf4 Hwf].
  apply wf_bytes_app in Hwf. destruct Hwf as [Hwfb _].
  rewrite Hbs, <- (le_enc_dec (firstn 4 bs)), H4, <- Hbody by exact Hwf4.
  apply rle_read_decodes; try assumption. rewrite Hbody. exact Hlen.
Qed.

(** the form used by the page layer: the consumed count cuts [bs] at [rest] *)
Corollary rle_read_agrees_skip w bs rs rest :
  In w widths -> wf_bytes bs -> hybrid_decode_framed w bs = Some (rs, rest) ->
  nlen bs < 2 ^ 31 -> Forall run_small rs ->
  exists n, rle_read w bs = Ok (runs_values rs, n) /\ skipn n bs = rest /\ (n <= length bs)%nat /\ (4 <= n)%nat.
Proof.
  intros Hw Hwf Hdec Hlen Hsmall.
  assert (H31 : le_dec (firstn 4 bs) < 2 ^ 31).
  { destruct (hybrid_decode_framed_inv w bs rs rest Hdec) as (body & Hbs & _ & <- & _).
    rewrite Hbs, !nlen_app in Hlen. lia. }
  destruct (rle_read_agrees w bs rs rest Hw Hwf Hdec H31 Hsmall) as (body & Hbs & H4 & _ & _ & Hrd).
  exists (4 + length body)%nat. split; [exact Hrd|].
  assert (Hl : length bs = (4 + length body + length rest)%nat).
  { rewrite Hbs at 1. rewrite !app_length, H4. lia. }
  split; [|lia].
  set (hd := firstn 4 bs) in *.
  replace (4 + length body)%nat with (length (hd ++ body)) by (rewrite app_length; lia).
  rewrite Hbs, app_assoc. apply skipn_app_exact.
Qed.

(** [wf_bytes] is needed: on a "byte" of 256 the specification reader sees a
    continuation bit ([256 <? 128] is false), the Go reader does not
    ([256 & 128 = 0]) *)
Example wf_bytes_needed :
  uleb_dec [256; 1] = Some (128, []) /\ read_leb128_go [256; 1] 0 0 = Some (0, [1]).
Proof. vm_compute. split; reflexivity. Qed.

(** [run_small] is needed: a run header of 2^64 (count 2^63) is read as 0 by
    the Go routine's uint64 accumulator *)
Example run_small_needed :
  uleb_dec [128; 128; 128; 128; 128; 128; 128; 128; 128; 2] = Some (2 ^ 64, []) /\
  read_leb128_go [128; 128; 128; 128; 128; 128; 128; 128; 128; 2] 0 0 = Some (0, []).
Proof. vm_compute. split; reflexivity. Qed.

Print Assumptions rle_read_agrees.
Print Assumptions rle_read_agrees_skip.
