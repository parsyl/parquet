(** * IoProofs: generic facts about the source monad of [Io.v].

    io.ReadFull returns exactly the next [want] bytes whatever the
    fragmentation schedule, or an error when fewer are left.  Two properties of
    computations: [sched_indep] (value, position and operation count do not
    depend on the schedule) and [fault_local] (with a fault injected at source
    operation [k] the run is the fault-free one until operation [k] is reached,
    where it returns [Err]).  Both hold of the primitives and are preserved by
    [bind] ([io_closed]); [ReaderIoProofs.v] lifts any such property through
    the reader once. *)
From Coq Require Import List NArith ZArith Lia Bool Arith PeanoNat.
From Coq Require Import ZifyN ZifyNat ZifyBool.
From PQ Require Import Bytes Rle Io.
Import ListNotations.
Local Open Scope N_scope.

Lemma bind_ok {A B} {m : M A} {f : A -> M B} {s a s'} : m s = Ok (a, s') -> bind m f s = f a s'.
Proof. intros H. unfold bind. rewrite H. reflexivity. Qed.

Lemma bind_err {A B} {m : M A} {f : A -> M B} {s} : m s = Err -> bind m f s = Err.
Proof. intros H. unfold bind. rewrite H. reflexivity. Qed.

Definition avail (s : src) : bytes := skipn (N.to_nat (s_pos s)) (s_file s).

Definition read1_len (want : nat) (s : src) : nat :=
  Nat.min want (Nat.min (match s_sched s with b :: _ => Nat.max 1 b | [] => want end)
                        (length (avail s))).

Definition advance (k : nat) (s : src) : src :=
  {| s_file := s_file s; s_pos := s_pos s + N.of_nat k; s_sched := tl (s_sched s);
     s_fail := s_fail s; s_ops := s_ops s |}.

Lemma src_read1_eq want s :
  src_read1 want s = (firstn (read1_len want s) (avail s), advance (read1_len want s) s).
Proof. reflexivity. Qed.

Lemma read1_len_bounds want s :
  (read1_len want s <= want /\ read1_len want s <= length (avail s) /\
   (0 < want -> 0 < length (avail s) -> 0 < read1_len want s))%nat.
Proof.
  unfold read1_len. split; [apply Nat.le_min_l|]. split; [etransitivity; apply Nat.le_min_r|].
  intros Hw Ha. repeat apply Nat.min_glb_lt; try assumption.
  destruct (s_sched s) as [|b r]; [exact Hw | apply Nat.max_lt_iff; left; exact Nat.lt_0_1].
Qed.

Lemma avail_advance k s : avail (advance k s) = skipn k (avail s).
Proof.
  unfold avail, advance. cbn [s_pos s_file]. rewrite <- skipn_add. f_equal. lia.
Qed.

(** ** io.ReadFull *)

Lemma read_full_loop_S f w acc s :
  read_full_loop (S f) (S w) acc s =
  if Nat.eqb (read1_len (S w) s) 0 then Err
  else read_full_loop f (S w - read1_len (S w) s) (acc ++ firstn (read1_len (S w) s) (avail s))
                      (advance (read1_len (S w) s) s).
Proof.
  cbn [read_full_loop]. rewrite src_read1_eq.
  pose proof (read1_len_bounds (S w) s) as (_ & Hle & _).
  pose proof (firstn_length_le (avail s) Hle) as Hlen.
  destruct (firstn (read1_len (S w) s) (avail s)); rewrite <- Hlen; reflexivity.
Qed.

Lemma read_full_loop_O fuel acc s : read_full_loop fuel O acc s = Ok (acc, s).
Proof. destruct fuel as [|f]; reflexivity. Qed.

Theorem read_full_loop_ok fuel : forall want acc s,
  (want <= fuel)%nat -> (want <= length (avail s))%nat ->
  exists s', read_full_loop fuel want acc s = Ok (acc ++ firstn want (avail s), s') /\
             s_file s' = s_file s /\ s_pos s' = s_pos s + N.of_nat want /\
             s_fail s' = s_fail s /\ s_ops s' = s_ops s.
Proof.
  induction fuel as [|f IH]; intros [|w] acc s Hfuel Hav; [| inversion Hfuel | |].
  1, 2: exists s; rewrite read_full_loop_O; cbn [firstn N.of_nat]; rewrite app_nil_r, N.add_0_r; auto.
  rewrite read_full_loop_S.
  pose proof (read1_len_bounds (S w) s) as (Hk1 & Hk2 & Hk3).
  set (k := read1_len (S w) s) in *.
  (* the rest of the request after a first read of [k] bytes *)
  assert (Hj : (k <> 0 /\ S w - k <= f /\ S w - k <= length (avail s) - k /\ S w = k + (S w - k))%nat) by lia.
  destruct Hj as (Hk0 & Hjf & Hjav & Hsum). set (j := (S w - k)%nat) in *.
  destruct (Nat.eqb_spec k 0) as [Hz|_]; [contradiction|].
  destruct (IH j (acc ++ firstn k (avail s)) (advance k s) Hjf) as (s' & Hrun & Hf & Hp & Hfl & Ho).
  { rewrite avail_advance, skipn_length. exact Hjav. }
  exists s'. rewrite Hrun, avail_advance, <- app_assoc, Hsum, <- firstn_add, Nat2N.inj_add, N.add_assoc, Hf, Hp, Hfl, Ho.
  auto.
Qed.

Theorem read_full_loop_short fuel : forall want acc s,
  (length (avail s) < want)%nat -> read_full_loop fuel want acc s = Err.
Proof.
  induction fuel as [|f IH]; intros [|w] acc s Hav; [lia | reflexivity | lia |].
  rewrite read_full_loop_S.
  pose proof (read1_len_bounds (S w) s) as (_ & Hk2 & _).
  destruct (Nat.eqb (read1_len (S w) s) 0); [reflexivity|].
  apply IH. rewrite avail_advance, skipn_length. lia.
Qed.

(** [s'] reads the file of [s] at position [p] and is still fault-free; the
    schedule and the operation counter are left open *)
Definition lands (s : src) (p : N) (s' : src) : Prop :=
  s_file s' = s_file s /\ s_fail s' = None /\ s_pos s' = p.

Lemma lands_trans s p s1 q s2 : lands s p s1 -> lands s1 q s2 -> lands s q s2.
Proof. intros (Hf & _) (Hf' & H). split; [congruence | exact H]. Qed.

Lemma lands_avail s p s' : lands s p s' -> avail s' = skipn (N.to_nat p) (s_file s).
Proof. intros (Hf & _ & Hp). unfold avail. rewrite Hf, Hp. reflexivity. Qed.

Definition ticked (s : src) : src :=
  {| s_file := s_file s; s_pos := s_pos s; s_sched := s_sched s; s_fail := s_fail s; s_ops := S (s_ops s) |}.

Lemma op_tick_ok s : s_fail s = None -> op_tick s = Ok (tt, ticked s).
Proof. intros H. unfold op_tick, ticked. rewrite H. reflexivity. Qed.

(** every primitive below is [op_tick ;;; g] *)
Lemma tick_then {A} (g : M A) s : s_fail s = None -> bind op_tick (fun _ => g) s = g (ticked s).
Proof. intros H. exact (bind_ok (op_tick_ok s H)). Qed.

Lemma m_seek_start_ok off s :
  s_fail s = None -> (0 <= off)%Z ->
  exists s', m_seek_start off s = Ok (tt, s') /\ lands s (Z.to_N off) s'.
Proof.
  intros Hs Hoff. unfold m_seek_start. rewrite tick_then by exact Hs.
  destruct (Z.ltb_spec off 0); [lia|]. eexists. split; [reflexivity|]. repeat split. exact Hs.
Qed.

Lemma m_seek_end_ok off s :
  s_fail s = None -> (0 <= Z.of_N (nlen (s_file s)) + off)%Z ->
  exists s', m_seek_end off s = Ok (tt, s') /\ lands s (Z.to_N (Z.of_N (nlen (s_file s)) + off)) s'.
Proof.
  intros Hs Hoff. unfold m_seek_end. rewrite tick_then by exact Hs. cbn [ticked s_file].
  destruct (Z.ltb_spec (Z.of_N (nlen (s_file s)) + off) 0); [lia|].
  eexists. split; [reflexivity|]. repeat split. exact Hs.
Qed.

Lemma m_seek_end_err off s :
  s_fail s = None -> (Z.of_N (nlen (s_file s)) + off < 0)%Z -> m_seek_end off s = Err.
Proof.
  intros Hs Hoff. unfold m_seek_end. rewrite tick_then by exact Hs. cbn [ticked s_file].
  destruct (Z.ltb_spec (Z.of_N (nlen (s_file s)) + off) 0); [reflexivity | lia].
Qed.

(** Seek(-n, io.SeekEnd) *)
Lemma m_seek_end_back off n s :
  s_fail s = None -> off = (- Z.of_nat n)%Z ->
  if (length (s_file s) <? n)%nat then m_seek_end off s = Err
  else exists s', m_seek_end off s = Ok (tt, s') /\ lands s (N.of_nat (length (s_file s) - n)) s'.
Proof.
  intros Hs ->. destruct (Nat.ltb_spec (length (s_file s)) n) as [Hn|Hn].
  - apply m_seek_end_err; [exact Hs | unfold nlen; lia].
  - destruct (m_seek_end_ok (- Z.of_nat n) s Hs) as (s' & H & L); [unfold nlen; lia|].
    exists s'. split; [exact H|]. replace (N.of_nat _) with (Z.to_N (Z.of_N (nlen (s_file s)) + - Z.of_nat n)); [exact L | unfold nlen; lia].
Qed.

Lemma m_read_full_ok n s :
  s_fail s = None -> (n <= length (avail s))%nat ->
  exists s', m_read_full n s = Ok (firstn n (avail s), s') /\ lands s (s_pos s + N.of_nat n) s'.
Proof.
  intros Hs Hn. unfold m_read_full. rewrite tick_then by exact Hs.
  destruct (read_full_loop_ok n n [] (ticked s) (le_n n) Hn) as (s' & Hr & Hf & Hp & Hfl & _).
  exists s'. split; [exact Hr|]. unfold lands. rewrite Hf, Hp, Hfl. repeat split. exact Hs.
Qed.

Lemma m_read_struct_ok {A} (dec : bytes -> option (A * bytes)) s a rest :
  s_fail s = None -> dec (avail s) = Some (a, rest) ->
  exists s', m_read_struct dec s = Ok (a, s') /\
             lands s (s_pos s + N.of_nat (length (avail s) - length rest)) s'.
Proof.
  intros Hs Hdec. unfold m_read_struct. rewrite tick_then by exact Hs. cbv zeta.
  change (skipn (N.to_nat (s_pos (ticked s))) (s_file (ticked s))) with (avail s). rewrite Hdec.
  eexists. split; [reflexivity|]. repeat split. exact Hs.
Qed.

Lemma m_read_struct_none {A} (dec : bytes -> option (A * bytes)) s :
  s_fail s = None -> dec (avail s) = None -> m_read_struct dec s = Err.
Proof.
  intros Hs Hdec. unfold m_read_struct. rewrite tick_then by exact Hs. cbv zeta.
  change (skipn (N.to_nat (s_pos (ticked s))) (s_file (ticked s))) with (avail s). rewrite Hdec.
  reflexivity.
Qed.

Definition src_equiv (s1 s2 : src) : Prop :=
  s_file s1 = s_file s2 /\ s_pos s1 = s_pos s2 /\ s_fail s1 = s_fail s2 /\ s_ops s1 = s_ops s2.

Definition res_equiv {A} (r1 r2 : result (A * src)) : Prop :=
  match r1, r2 with
  | Ok (a1, s1), Ok (a2, s2) => a1 = a2 /\ src_equiv s1 s2
  | Err, Err => True
  | Panic, Panic => True
  | _, _ => False
  end.

Definition sched_indep {A} (m : M A) : Prop :=
  forall s1 s2, src_equiv s1 s2 -> res_equiv (m s1) (m s2).

Inductive res_equiv_cases {A} : result (A * src) -> result (A * src) -> Prop :=
| re_ok a s1 s2 : src_equiv s1 s2 -> res_equiv_cases (Ok (a, s1)) (Ok (a, s2))
| re_err : res_equiv_cases Err Err
| re_panic : res_equiv_cases Panic Panic.

Lemma res_equiv_inv {A} (r1 r2 : result (A * src)) : res_equiv r1 r2 -> res_equiv_cases r1 r2.
Proof.
  destruct r1 as [[a1 s1]| |], r2 as [[a2 s2]| |]; cbn [res_equiv]; try contradiction; try constructor.
  intros [<- H]. constructor. exact H.
Qed.

Lemma res_equiv_ok {A} (a : A) s1 s2 : src_equiv s1 s2 -> res_equiv (Ok (a, s1)) (Ok (a, s2)).
Proof. intros H. split; [reflexivity | exact H]. Qed.

Lemma src_equiv_refl s : src_equiv s s.
Proof. unfold src_equiv. auto. Qed.

Lemma src_equiv_avail s1 s2 : src_equiv s1 s2 -> avail s1 = avail s2.
Proof. intros (Hf & Hp & _). unfold avail. rewrite Hf, Hp. reflexivity. Qed.

Lemma src_equiv_mk_src file sched1 sched2 fo : src_equiv (mk_src file sched1 fo) (mk_src file sched2 fo).
Proof. repeat split. Qed.

Lemma sched_indep_bind {A B} (m : M A) (f : A -> M B) :
  sched_indep m -> (forall a, sched_indep (f a)) -> sched_indep (bind m f).
Proof.
  intros Hm Hf s1 s2 H. unfold bind.
  destruct (res_equiv_inv _ _ (Hm s1 s2 H)) as [a t1 t2 He| |]; [apply Hf, He | exact I | exact I].
Qed.

Lemma sched_indep_op_tick : sched_indep op_tick.
Proof.
  intros s1 s2 (Hf & Hp & Hfl & Ho). unfold op_tick. rewrite Hf, Hp, Hfl, Ho.
  destruct (s_fail s2) as [k|]; [destruct (Nat.eqb k (s_ops s2)); [exact I|]|];
    apply res_equiv_ok; repeat split.
Qed.

Lemma sched_indep_set_pos p : sched_indep (set_pos p).
Proof. intros s1 s2 (Hf & _ & Hfl & Ho). apply res_equiv_ok. repeat split; assumption. Qed.

Lemma sched_indep_seek_start off : sched_indep (m_seek_start off).
Proof.
  unfold m_seek_start. apply sched_indep_bind; [apply sched_indep_op_tick | intros _].
  destruct (off <? 0)%Z; [intros s1 s2 H; exact I | apply sched_indep_set_pos].
Qed.

Lemma sched_indep_seek_end off : sched_indep (m_seek_end off).
Proof.
  unfold m_seek_end. apply sched_indep_bind; [apply sched_indep_op_tick | intros _].
  intros s1 s2 H. cbv zeta. pose proof H as (Hf & _). rewrite Hf.
  destruct (Z.of_N (nlen (s_file s2)) + off <? 0)%Z; [exact I | apply sched_indep_set_pos; exact H].
Qed.

Lemma read_full_loop_equiv n acc s1 s2 :
  src_equiv s1 s2 -> res_equiv (read_full_loop n n acc s1) (read_full_loop n n acc s2).
Proof.
  intros H. pose proof (src_equiv_avail s1 s2 H) as Hav.
  destruct (le_lt_dec n (length (avail s1))) as [Hle|Hlt].
  - destruct (read_full_loop_ok n n acc s1 (le_n n) Hle) as (s1' & Hr1 & Hf1 & Hp1 & Hfl1 & Ho1).
    rewrite Hav in Hle.
    destruct (read_full_loop_ok n n acc s2 (le_n n) Hle) as (s2' & Hr2 & Hf2 & Hp2 & Hfl2 & Ho2).
    rewrite Hr1, Hr2, Hav. apply res_equiv_ok.
    destruct H as (Hf & Hp & Hfl & Ho). unfold src_equiv.
    rewrite Hf1, Hf2, Hp1, Hp2, Hfl1, Hfl2, Ho1, Ho2, Hf, Hp, Hfl, Ho. auto.
  - rewrite (read_full_loop_short n n acc s1 Hlt).
    rewrite Hav in Hlt. rewrite (read_full_loop_short n n acc s2 Hlt). exact I.
Qed.

Lemma sched_indep_read_full n : sched_indep (m_read_full n).
Proof.
  unfold m_read_full. apply sched_indep_bind; [apply sched_indep_op_tick | intros _].
  intros s1 s2 H. apply read_full_loop_equiv. exact H.
Qed.

Lemma sched_indep_read_struct {A} (dec : bytes -> option (A * bytes)) : sched_indep (m_read_struct dec).
Proof.
  unfold m_read_struct. apply sched_indep_bind; [apply sched_indep_op_tick | intros _].
  intros s1 s2 H. cbv zeta. fold (avail s1). fold (avail s2).
  rewrite (src_equiv_avail s1 s2 H). destruct H as (Hf & Hp & Hfl & Ho). rewrite Hf, Hp, Hfl, Ho.
  destruct (dec (avail s2)) as [[a rest]|]; [|exact I].
  apply res_equiv_ok. repeat split.
Qed.

Definition with_fail (fo : option nat) (s : src) : src :=
  {| s_file := s_file s; s_pos := s_pos s; s_sched := s_sched s; s_fail := fo; s_ops := s_ops s |}.

(** [good] is the result of a computation from the fault-free state [s], [bad]
    its result from [with_fail (Some k) s].  A fault can turn a panic into an
    error (it is hit first: [s_ops s <= k]), nothing into a panic: C10's "no new panic". *)
Definition fault_rel {A} (k : nat) (s : src) (good bad : result (A * src)) : Prop :=
  match good with
  | Ok (a, s') =>
      s_fail s' = None /\ (s_ops s <= s_ops s')%nat /\
      ((bad = Ok (a, with_fail (Some k) s') /\ (k < s_ops s \/ s_ops s' <= k)%nat) \/
       (bad = Err /\ (s_ops s <= k < s_ops s')%nat))
  | Err => bad = Err
  | Panic => bad = Panic \/ (bad = Err /\ (s_ops s <= k)%nat)
  end.

Definition fault_local {A} (m : M A) : Prop :=
  forall s k, s_fail s = None -> fault_rel k s (m s) (m (with_fail (Some k) s)).

Inductive fault_cases {A} (k : nat) (s : src) : result (A * src) -> result (A * src) -> Prop :=
| fc_same a s' : s_fail s' = None -> (s_ops s <= s_ops s')%nat -> (k < s_ops s \/ s_ops s' <= k)%nat ->
    fault_cases k s (Ok (a, s')) (Ok (a, with_fail (Some k) s'))
| fc_cut a s' : s_fail s' = None -> (s_ops s <= k < s_ops s')%nat -> fault_cases k s (Ok (a, s')) Err
| fc_err : fault_cases k s Err Err
| fc_panic : fault_cases k s Panic Panic
| fc_panic_cut : (s_ops s <= k)%nat -> fault_cases k s Panic Err.

Lemma fault_rel_iff {A} k s (good bad : result (A * src)) : fault_rel k s good bad <-> fault_cases k s good bad.
Proof.
  split.
  - destruct good as [[a s']| |]; cbn [fault_rel].
    + intros (Hs' & Hm & [[-> Hk] | [-> Hk]]); constructor; assumption.
    + intros ->. constructor.
    + intros [-> | [-> Hk]]; constructor; exact Hk.
  - intros [a s' Hs' Hm Hk | a s' Hs' Hk | | | Hk]; cbn [fault_rel]; auto.
    split; [exact Hs'|]. split; [lia|]. right. split; [reflexivity | exact Hk].
Qed.

(** computations that neither look at the fault nor count an operation *)
Definition fail_obl {A} (m : M A) : Prop :=
  forall s fo,
    match m s with
    | Ok (a, s') => m (with_fail fo s) = Ok (a, with_fail fo s') /\ s_ops s' = s_ops s /\ s_fail s' = s_fail s
    | Err => m (with_fail fo s) = Err
    | Panic => m (with_fail fo s) = Panic
    end.

Lemma fail_obl_local {A} (m : M A) : fail_obl m -> fault_local m.
Proof.
  intros Hobl s k Hs. specialize (Hobl s (Some k)). apply fault_rel_iff.
  destruct (m s) as [[a s']| |].
  - destruct Hobl as (-> & Ho & Hf). constructor; [congruence | lia | lia].
  - rewrite Hobl. constructor.
  - rewrite Hobl. constructor.
Qed.

Lemma fault_local_bind {A B} (m : M A) (f : A -> M B) :
  fault_local m -> (forall a, fault_local (f a)) -> fault_local (bind m f).
Proof.
  intros Hm Hf s k Hs. apply fault_rel_iff. unfold bind.
  destruct (proj1 (fault_rel_iff _ _ _ _) (Hm s k Hs)) as [a s' Hs' Hmono Hk | a s' Hs' Hk | | | Hk];
    try (constructor; exact Hk).
  - (* [m] does not reach the fault: [f a] decides *)
    destruct (proj1 (fault_rel_iff _ _ _ _) (Hf a s' k Hs')) as [b s'' Hs'' Hm' Hk' | b s'' Hs'' [Hk1 Hk2] | | | Hk'];
      constructor; auto; try (eapply Nat.le_trans; eassumption).
    + lia.
    + split; [eapply Nat.le_trans; eassumption | exact Hk2].
  - (* [m] is cut short, whatever [f a] would have done *)
    destruct Hk as [Hk1 Hk2].
    destruct (proj1 (fault_rel_iff _ _ _ _) (Hf a s' k Hs')) as [b s'' Hs'' Hm' _ | b s'' Hs'' [_ Hk'] | | | _];
      constructor; auto; split; auto; eapply Nat.lt_le_trans; eassumption.
Qed.

Lemma fault_local_op_tick : fault_local op_tick.
Proof.
  intros s k Hs. apply fault_rel_iff. rewrite (op_tick_ok s Hs). unfold op_tick. cbn [with_fail s_fail s_ops].
  destruct (Nat.eqb_spec k (s_ops s)) as [He|Hne].
  - apply fc_cut; cbn [ticked s_ops]; [exact Hs | lia].
  - apply (fc_same k s tt (ticked s)); cbn [ticked s_ops]; [exact Hs | lia | lia].
Qed.

Lemma fail_obl_set_pos p : fail_obl (set_pos p).
Proof. intros s fo. unfold set_pos. cbn [s_ops s_fail]. auto. Qed.

Lemma read_full_loop_with_fail fo fuel : forall want acc s,
  read_full_loop fuel want acc (with_fail fo s) =
  match read_full_loop fuel want acc s with
  | Ok (b, s') => Ok (b, with_fail fo s')
  | Err => Err
  | Panic => Panic
  end.
Proof.
  induction fuel as [|f IH]; intros [|w] acc s; try reflexivity.
  rewrite !read_full_loop_S.
  change (read1_len (S w) (with_fail fo s)) with (read1_len (S w) s).
  destruct (Nat.eqb (read1_len (S w) s) 0); [reflexivity|].
  exact (IH _ _ (advance (read1_len (S w) s) s)).
Qed.

Lemma fail_obl_read_full_loop n : fail_obl (fun s => read_full_loop n n [] s).
Proof.
  intros s fo. cbv beta. rewrite read_full_loop_with_fail.
  destruct (le_lt_dec n (length (avail s))) as [Hle|Hlt].
  - destruct (read_full_loop_ok n n [] s (le_n n) Hle) as (s' & Hr & _ & _ & Hfl & Ho).
    rewrite Hr. auto.
  - rewrite (read_full_loop_short n n [] s Hlt). reflexivity.
Qed.

Lemma fault_local_seek_start off : fault_local (m_seek_start off).
Proof.
  unfold m_seek_start. apply fault_local_bind; [apply fault_local_op_tick | intros _].
  apply fail_obl_local. destruct (off <? 0)%Z; [intros s fo; reflexivity | apply fail_obl_set_pos].
Qed.

Lemma fault_local_seek_end off : fault_local (m_seek_end off).
Proof.
  unfold m_seek_end. apply fault_local_bind; [apply fault_local_op_tick | intros _].
  apply fail_obl_local. intros s fo. cbv zeta. cbn [with_fail s_file].
  destruct (Z.of_N (nlen (s_file s)) + off <? 0)%Z; [reflexivity | apply fail_obl_set_pos].
Qed.

Lemma fault_local_read_full n : fault_local (m_read_full n).
Proof.
  unfold m_read_full. apply fault_local_bind; [apply fault_local_op_tick | intros _].
  apply fail_obl_local, fail_obl_read_full_loop.
Qed.

Lemma fault_local_read_struct {A} (dec : bytes -> option (A * bytes)) : fault_local (m_read_struct dec).
Proof.
  unfold m_read_struct. apply fault_local_bind; [apply fault_local_op_tick | intros _].
  apply fail_obl_local. intros s fo. cbv zeta. cbn [with_fail s_file s_pos s_sched s_fail s_ops].
  destruct (dec (skipn (N.to_nat (s_pos s)) (s_file s))) as [[a rest]|]; [|reflexivity].
  cbn [s_ops s_fail]. auto.
Qed.

Lemma fault_local_not_reached {A} (m : M A) s k a s' :
  fault_local m -> s_fail s = None -> m s = Ok (a, s') -> (k < s_ops s \/ s_ops s' <= k)%nat ->
  m (with_fail (Some k) s) = Ok (a, with_fail (Some k) s').
Proof.
  intros Hm Hs. destruct (proj1 (fault_rel_iff _ _ _ _) (Hm s k Hs)); intros [= <- <-] Hk; [reflexivity | lia].
Qed.

Lemma fault_local_reached {A} (m : M A) s k a s' :
  fault_local m -> s_fail s = None -> m s = Ok (a, s') -> (s_ops s <= k < s_ops s')%nat ->
  m (with_fail (Some k) s) = Err.
Proof.
  intros Hm Hs. destruct (proj1 (fault_rel_iff _ _ _ _) (Hm s k Hs)); intros [= <- <-] Hk; [lia | reflexivity].
Qed.

Lemma fault_local_no_new_panic {A} (m : M A) s k :
  fault_local m -> s_fail s = None -> m (with_fail (Some k) s) = Panic -> m s = Panic.
Proof.
  intros Hm Hs. destruct (proj1 (fault_rel_iff _ _ _ _) (Hm s k Hs)); intros [=]. reflexivity.
Qed.

Lemma fault_local_same_value {A} (m : M A) s k a sk' :
  fault_local m -> s_fail s = None -> m (with_fail (Some k) s) = Ok (a, sk') ->
  exists s', m s = Ok (a, s') /\ sk' = with_fail (Some k) s'.
Proof.
  intros Hm Hs. destruct (proj1 (fault_rel_iff _ _ _ _) (Hm s k Hs)); intros [= <- <-].
  eexists. split; reflexivity.
Qed.

Record io_closed (P : forall A : Type, M A -> Prop) : Prop := {
  ic_ret : forall A (a : A), P A (ret a);
  ic_err : forall A, P A fail_err;
  ic_panic : forall A, P A fail_panic;
  ic_bind : forall A B (m : M A) (f : A -> M B), P A m -> (forall a, P B (f a)) -> P B (bind m f);
  ic_get_pos : P N get_pos;
  ic_seek_start : forall off, P unit (m_seek_start off);
  ic_seek_end : forall off, P unit (m_seek_end off);
  ic_read_full : forall n, P bytes (m_read_full n);
  ic_read_struct : forall A (dec : bytes -> option (A * bytes)), P A (m_read_struct dec)
}.

Lemma sched_indep_closed : io_closed (@sched_indep).
Proof.
  constructor; intros.
  - intros s1 s2 H. apply res_equiv_ok, H.
  - intros s1 s2 H. exact I.
  - intros s1 s2 H. exact I.
  - apply sched_indep_bind; assumption.
  - intros s1 s2 H. split; [apply H | exact H].
  - apply sched_indep_seek_start.
  - apply sched_indep_seek_end.
  - apply sched_indep_read_full.
  - apply sched_indep_read_struct.
Qed.

Lemma fault_local_closed : io_closed (@fault_local).
Proof.
  constructor; intros.
  - apply fail_obl_local. intros s fo. cbn [ret]. auto.
  - apply fail_obl_local. intros s fo. reflexivity.
  - apply fail_obl_local. intros s fo. reflexivity.
  - apply fault_local_bind; assumption.
  - apply fail_obl_local. intros s fo. cbn [get_pos]. auto.
  - apply fault_local_seek_start.
  - apply fault_local_seek_end.
  - apply fault_local_read_full.
  - apply fault_local_read_struct.
Qed.

Print Assumptions read_full_loop_ok.
Print Assumptions read_full_loop_short.
Print Assumptions sched_indep_closed.
Print Assumptions fault_local_closed.
Print Assumptions fault_local_same_value.
