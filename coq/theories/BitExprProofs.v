(** * BitExprProofs: every term of the [bexpr] fragment is a [lor]-linear map
    of its environment.  A linear equation between two such maps on vectors of
    length [n] with entries below [2^k] therefore follows from its instances on
    the vectors with a single bit set in a single slot (basis reduction:
    [by_units] for the slots, [by_bits] for the bits of a slot).  This is what
    lets [BitpackProofs.v] prove the C17 statements for all groups from a few
    hundred evaluations. *)
From Coq Require Import List NArith Lia Arith.
From PQ Require Import Bytes BitExpr.
Import ListNotations.
Local Open Scope N_scope.

(** Pointwise [lor]; the longer list wins where the other has ended. *)
Fixpoint join (a b : list N) : list N :=
  match a, b with
  | [], _ => b
  | _, [] => a
  | x :: a', y :: b' => N.lor x y :: join a' b'
  end.

Lemma join_nil_r a : join a [] = a.
Proof. destruct a; reflexivity. Qed.

Lemma join_length a b : length a = length b -> length (join a b) = length a.
Proof.
  revert b; induction a as [|x a IH]; intros [|y b] H; cbn in *; try lia.
  rewrite IH by lia. reflexivity.
Qed.

Lemma nth_join i a b : nth i (join a b) 0 = N.lor (nth i a 0) (nth i b 0).
Proof.
  revert a b; induction i as [|i IH]; intros [|x a] [|y b]; cbn [join nth];
    rewrite ?N.lor_0_r, ?N.lor_0_l; auto; try (destruct i; reflexivity).
Qed.

Lemma lor_lor a b c d : N.lor (N.lor a b) (N.lor c d) = N.lor (N.lor a c) (N.lor b d).
Proof. rewrite !N.lor_assoc. f_equal. rewrite <- !N.lor_assoc. f_equal. apply N.lor_comm. Qed.

Lemma eval_join e a b : eval (join a b) e = N.lor (eval a e) (eval b e).
Proof.
  induction e as [i|e IH m|e1 IH1 e2 IH2|e IH k|e IH k]; cbn [eval].
  - apply nth_join.
  - rewrite IH. apply N.land_lor_distr_l.
  - rewrite IH1, IH2. apply lor_lor.
  - rewrite IH, N.shiftl_lor. apply N.land_lor_distr_l.
  - rewrite IH. apply N.shiftr_lor.
Qed.

Lemma eval_table_length t env : length (eval_table t env) = length t.
Proof. apply map_length. Qed.

(** ** Linear maps on vectors of length [n] *)

Definition linear (n : nat) (F : list N -> list N) : Prop :=
  forall a b, length a = n -> length b = n -> F (join a b) = join (F a) (F b).

Lemma linear_eval_table n t : linear n (eval_table t).
Proof.
  intros a b _ _. unfold eval_table. induction t as [|e t IH]; cbn [map join]; [|rewrite eval_join, IH]; reflexivity.
Qed.

Lemma linear_id n : linear n (fun v => v).
Proof. intros a b _ _. reflexivity. Qed.

Lemma linear_compose n m F G :
  linear n F -> linear m G -> (forall a, length a = n -> length (F a) = m) ->
  linear n (fun v => G (F v)).
Proof.
  intros HF HG Hlen a b Ha Hb. rewrite HF by assumption. apply HG; apply Hlen; assumption.
Qed.

Lemma linear_mask n m : linear n (map (fun v => N.land v m)).
Proof.
  intros a b _ _. revert b; induction a as [|x a IH]; intros [|y b]; cbn [join map]; try reflexivity.
  rewrite N.land_lor_distr_l, IH. reflexivity.
Qed.

(** ** Single-slot vectors and basis reduction *)

Definition zeros (n : nat) : list N := repeat 0 n.
Definition unit (n i : nat) (v : N) : list N := zeros i ++ v :: zeros (n - i - 1).

Lemma zeros_length n : length (zeros n) = n.
Proof. apply repeat_length. Qed.

Lemma unit_length n i v : (i < n)%nat -> length (unit n i v) = n.
Proof. intros H. unfold unit. rewrite app_length. cbn [length]. rewrite !zeros_length. lia. Qed.

Lemma unit_zero n i : (i < n)%nat -> unit n i 0 = zeros n.
Proof.
  intros H. unfold unit, zeros. change (0 :: repeat 0 (n - i - 1)) with (repeat 0 (S (n - i - 1))).
  rewrite <- repeat_app. f_equal. lia.
Qed.

Lemma join_zeros_l m r : length r = m -> join (zeros m) r = r.
Proof.
  intros <-. unfold zeros. induction r as [|x r IH]; cbn [length repeat join]; [reflexivity|].
  rewrite N.lor_0_l, IH. reflexivity.
Qed.

Lemma join_unit_tail k x y r r' :
  join (zeros k ++ x :: r) (zeros k ++ y :: r') = zeros k ++ N.lor x y :: join r r'.
Proof.
  unfold zeros. induction k as [|k IH]; cbn [repeat app join]; [reflexivity|].
  rewrite N.lor_0_l, IH. reflexivity.
Qed.

Lemma unit_join n i x y : join (unit n i x) (unit n i y) = unit n i (N.lor x y).
Proof.
  unfold unit. rewrite join_unit_tail, join_zeros_l by apply zeros_length. reflexivity.
Qed.

Lemma unit_tail n k x r :
  (S k + length r = n)%nat -> zeros k ++ x :: r = join (unit n k x) (zeros (S k) ++ r).
Proof.
  intros <-. unfold unit, zeros. replace (S k + length r - k - 1)%nat with (length r) by lia.
  cbn [repeat]. rewrite repeat_cons, <- app_assoc. cbn [app].
  rewrite join_unit_tail, N.lor_0_r, join_zeros_l by reflexivity. reflexivity.
Qed.

Lemma by_units (P : N -> Prop) n F G :
  linear n F -> linear n G ->
  (forall i v, (i < n)%nat -> P v -> F (unit n i v) = G (unit n i v)) ->
  F (zeros n) = G (zeros n) ->
  forall vs, length vs = n -> Forall P vs -> F vs = G vs.
Proof.
  intros HF HG Hu Hz.
  assert (Hk : forall tl k, (k + length tl = n)%nat -> Forall P tl ->
                            F (zeros k ++ tl) = G (zeros k ++ tl)).
  { induction tl as [|x r IH]; intros k Hlen HP.
    - rewrite app_nil_r. rewrite Nat.add_0_r in Hlen. rewrite Hlen. exact Hz.
    - apply Forall_cons_iff in HP. destruct HP as [Hx Hr].
      cbn [length] in Hlen. rewrite <- Nat.add_succ_comm in Hlen.
      assert (Hi : (k < n)%nat) by (rewrite <- Hlen; apply Nat.lt_lt_add_r, Nat.lt_succ_diag_r).
      assert (Hl : length (zeros (S k) ++ r) = n) by (rewrite app_length, zeros_length; exact Hlen).
      rewrite (unit_tail n k x r Hlen), HF, HG by (assumption || apply unit_length, Hi).
      rewrite Hu, (IH (S k)) by assumption. reflexivity. }
  intros vs. exact (Hk vs 0%nat).
Qed.

(** A slot is itself the join of its bits: peel off the top bit of [v < 2^(k+1)]. *)
Lemma by_bits n k F G :
  linear n F -> linear n G ->
  (forall i j, (i < n)%nat -> j < k -> F (unit n i (2 ^ j)) = G (unit n i (2 ^ j))) ->
  F (zeros n) = G (zeros n) ->
  forall vs, length vs = n -> Forall (fun v => v < 2 ^ k) vs -> F vs = G vs.
Proof.
  intros HF HG Hu Hz. apply by_units; [assumption.. | | assumption].
  intros i v Hi. revert v.
  assert (H : forall k', k' <= k -> forall v, v < 2 ^ k' -> F (unit n i v) = G (unit n i v));
    [| exact (H k (N.le_refl k))].
  induction k' as [|k' IH] using N.peano_ind; intros Hk v Hv.
  - apply N.lt_1_r in Hv. rewrite Hv, unit_zero; assumption.
  - apply N.le_succ_l in Hk. assert (Hp : 2 ^ k' <> 0) by (apply N.pow_nonzero; discriminate).
    rewrite <- (N.lor_ldiff_and v (N.ones k')), N.ldiff_ones_r, N.land_ones, <- unit_join.
    rewrite HF, HG by (apply unit_length; assumption). f_equal.
    + assert (Hq : N.shiftr v k' < 2).
      { rewrite N.shiftr_div_pow2. apply N.div_lt_upper_bound; [assumption|].
        rewrite N.mul_comm, <- N.pow_succ_r'. assumption. }
      change 2 with (N.succ 1) in Hq. apply N.lt_succ_r, N.le_1_r in Hq. destruct Hq as [-> | ->].
      * rewrite N.shiftl_0_l, unit_zero; assumption.
      * rewrite N.shiftl_1_l. apply Hu; assumption.
    + apply IH; [apply N.lt_le_incl, Hk | apply N.mod_lt, Hp].
Qed.

(** ** Deciding the finite premise of [by_bits] by computation *)

Definition list_eqb (a b : list N) : bool := if list_eq_dec N.eq_dec a b then true else false.

Lemma list_eqb_eq a b : list_eqb a b = true -> a = b.
Proof. unfold list_eqb. destruct (list_eq_dec N.eq_dec a b); [trivial | discriminate]. Qed.

Definition nrange (k : N) : list N := map N.of_nat (seq 0 (N.to_nat k)).

Lemma nrange_in k v : v < k -> In v (nrange k).
Proof.
  intros H. unfold nrange. apply in_map_iff. exists (N.to_nat v). split; [lia|].
  apply in_seq. lia.
Qed.

Definition units_agree (n : nat) (k : N) (F G : list N -> list N) : bool :=
  forallb (fun i => forallb (fun j => list_eqb (F (unit n i (2 ^ j))) (G (unit n i (2 ^ j)))) (nrange k)) (seq 0 n)
  && list_eqb (F (zeros n)) (G (zeros n)).

Lemma units_agree_sound n k F G :
  linear n F -> linear n G -> units_agree n k F G = true ->
  forall vs, length vs = n -> Forall (fun v => v < 2 ^ k) vs -> F vs = G vs.
Proof.
  intros HF HG H. unfold units_agree in H. apply andb_prop in H. destruct H as [Hu Hz].
  apply by_bits; auto.
  - intros i j Hi Hj. apply list_eqb_eq.
    rewrite forallb_forall in Hu. specialize (Hu i). rewrite forallb_forall in Hu.
    apply Hu; [apply in_seq; lia | apply nrange_in; assumption].
  - apply list_eqb_eq. assumption.
Qed.
