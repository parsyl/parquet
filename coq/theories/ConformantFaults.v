(** * ConformantFaults: the three reader theorems composed for every file the
    validator accepts: C04 [conformant_read_ok] + C08 [read_frag_indep] + C10
    [src_fault_safe] ([C10_conformant_fault_safe]). *)
From Coq Require Import List NArith ZArith Lia Bool.
From PQ Require Import Bytes Schema MetaTypes Io Reader FileSpec ForeignProofs ConformantProofs ReaderIoProofs.
Import ListNotations.
Local Open Scope N_scope.

Definition expected_outcome (v : file_view) : outcome :=
  {| o_open_ok := true; o_rows := Z.of_N (sumN (map rv_rows (fv_rgs v)));
     o_nexts := sumN (map rv_rows (fv_rgs v)); o_err := false; o_panic := false;
     o_recs := view_records v |}.

Section Composite.
Variable decompress : Z -> bytes -> option bytes.
Variables (fs : list field) (file : bytes) (v : file_view).
Hypothesis Hchk : check_file decompress file = inr v.
Hypothesis Hfs : fv_fields v = fs.
Hypothesis Hshape : fshape_ok fs.
Hypothesis Hid : forall x, decompress CODEC_UNCOMPRESSED x = Some x.
Hypothesis Hwfd : forall c x y, wf_bytes x -> decompress c x = Some y -> wf_bytes y.
Hypothesis Hwf : wf_bytes file.

Theorem conformant_any_schedule sched :
  read_all_src decompress fs (mk_src file sched None) = expected_outcome v.
Proof using Hchk Hfs Hshape Hid Hwfd Hwf.
  rewrite (read_frag_indep decompress fs file sched [] None).
  exact (conformant_read_ok decompress fs file v Hchk Hfs Hshape Hid Hwfd Hwf).
Qed.

Theorem conformant_fault_safe sched k :
  let bad := read_all_src decompress fs (mk_src file sched (Some k)) in
  bad = expected_outcome v \/
  (o_err bad = true /\ o_panic bad = false /\
   o_nexts bad <= sumN (map rv_rows (fv_rgs v)) /\
   exists rest, view_records v = o_recs bad ++ rest).
Proof using Hchk Hfs Hshape Hid Hwfd Hwf.
  cbv zeta.
  pose proof (src_fault_safe decompress fs file sched k) as H. cbv zeta in H.
  rewrite (conformant_any_schedule sched) in H.
  destruct H as [H | (He & Hp & _ & Hn & Hr)].
  - left. exact H.
  - right. cbn [expected_outcome o_nexts o_recs] in Hn, Hr.
    split; [exact He|]. split; [exact Hp|]. split; [exact Hn | exact Hr].
Qed.

End Composite.

Print Assumptions conformant_any_schedule.
Print Assumptions conformant_fault_safe.
