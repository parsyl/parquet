(** * VarintProofs: round trips and agreement of the Go routines with the
    specification ULEB128. *)
From Coq Require Import List NArith ZArith Lia Bool.
From Coq Require Import ZifyN ZifyNat ZifyBool.
From PQ Require Import Bytes Varint.
Import ListNotations.
Local Open Scope N_scope.

Lemma size_nat_gt n : n < 2 ^ N.of_nat (N.size_nat n).
Proof.
  destruct n as [|p]; [cbn; lia|]. cbn [N.size_nat].
  induction p as [p IH|p IH|]; cbn [Pos.size_nat]; [| |cbn; lia];
    rewrite Nat2N.inj_succ, N.pow_succ_r'; lia.
Qed.

Lemma pow2_7_succ k : 2 ^ (7 * N.of_nat (S k)) = 128 * 2 ^ (7 * N.of_nat k).
Proof.
  replace (7 * N.of_nat (S k)) with (7 + 7 * N.of_nat k) by lia.
  rewrite N.pow_add_r. reflexivity.
Qed.

Lemma pow2_shift7 s : 2 ^ (s + 7) = 128 * 2 ^ s.
Proof. rewrite N.pow_add_r. change (2 ^ 7) with 128. lia. Qed.

Lemma split7 n p : n mod 128 * p + n / 128 * (128 * p) = n * p.
Proof.
  replace (n * p) with ((128 * (n / 128) + n mod 128) * p)
    by (rewrite <- N.div_mod by discriminate; reflexivity).
  ring.
Qed.

Lemma acc_bound acc m p : acc < p -> m < 128 -> acc + m * p < 128 * p.
Proof.
  intros Hacc Hm. assert (H : m * p <= 127 * p) by (apply N.mul_le_mono_r; lia). lia.
Qed.

Lemma cont_byte_mod m : m < 128 -> (m + 128) mod 128 = m.
Proof.
  intros Hm. change (m + 128) with (m + 1 * 128).
  rewrite N.mod_add by discriminate. apply N.mod_small, Hm.
Qed.

Definition enough (f : nat) (n : N) : Prop := n < 2 ^ (7 * N.of_nat f).

Lemma enough_init n : enough (S (N.size_nat n)) n.
Proof.
  unfold enough. pose proof (size_nat_gt n) as Hn.
  eapply N.lt_le_trans; [exact Hn|].
  apply N.pow_le_mono_r; lia.
Qed.

Lemma enough_step f n : enough (S f) n -> 128 <= n -> exists f', f = S f' /\ enough f (n / 128).
Proof.
  unfold enough. intros He Hn. rewrite pow2_7_succ in He.
  assert (Hd : n / 128 < 2 ^ (7 * N.of_nat f)) by (apply N.div_lt_upper_bound; lia).
  destruct f as [|f'].
  - exfalso. change (2 ^ (7 * N.of_nat 0)) with 1 in Hd. lia.
  - exists f'. split; [reflexivity | exact Hd].
Qed.

Lemma land_disjoint a x s : a < 2 ^ s -> N.land a (x * 2 ^ s) = 0.
Proof.
  intros Ha. apply N.bits_inj. intros i.
  rewrite N.land_spec, N.bits_0, <- N.shiftl_mul_pow2.
  destruct (N.ltb_spec i s) as [Hi|Hi].
  - rewrite N.shiftl_spec_low by exact Hi. apply andb_false_r.
  - rewrite <- (N.mod_small a (2 ^ s)) by exact Ha.
    rewrite N.mod_pow2_bits_high by exact Hi. reflexivity.
Qed.

Lemma lor_disjoint a x s : a < 2 ^ s -> N.lor a (x * 2 ^ s) = a + x * 2 ^ s.
Proof.
  intros Ha. pose proof (land_disjoint a x s Ha) as H.
  rewrite <- (N.lxor_lor _ _ H). symmetry. apply N.add_nocarry_lxor. exact H.
Qed.

Lemma land_127 b : N.land b 127 = b mod 128.
Proof. change 127 with (N.ones 7). rewrite N.land_ones. reflexivity. Qed.

Lemma lor_128 m : m < 128 -> N.lor m 128 = m + 128.
Proof.
  intros Hm. change 128 with (1 * 2 ^ 7). apply lor_disjoint. exact Hm.
Qed.

Lemma land_128_byte b : b < 256 -> (N.land b 128 =? 0) = (b <? 128).
Proof.
  intros Hb. destruct (N.ltb_spec b 128) as [Hlt|Hge].
  - change 128 with (1 * 2 ^ 7). rewrite land_disjoint by exact Hlt. reflexivity.
  - apply N.eqb_neq. replace b with (b - 128 + 128) by lia.
    rewrite <- lor_128, N.land_lor_distr_l, N.land_diag by lia.
    intros H. apply N.lor_eq_0_iff in H. destruct H as [_ H]. discriminate H.
Qed.

(** ** The specification encoder *)

Lemma uleb_enc_fuel_small f n : n < 128 -> uleb_enc_fuel (S f) n = [n].
Proof.
  intros Hn. cbn [uleb_enc_fuel].
  destruct (N.ltb_spec n 128) as [_|Hge]; [reflexivity | lia].
Qed.

Lemma uleb_enc_fuel_big f n :
  128 <= n -> uleb_enc_fuel (S f) n = (n mod 128 + 128) :: uleb_enc_fuel f (n / 128).
Proof.
  intros Hn. cbn [uleb_enc_fuel].
  destruct (N.ltb_spec n 128) as [Hlt|_]; [lia | reflexivity].
Qed.

Lemma uleb_enc_small n : n < 128 -> uleb_enc n = [n].
Proof. intros Hn. unfold uleb_enc. apply uleb_enc_fuel_small. exact Hn. Qed.

Lemma uleb_enc_len n : (1 <= length (uleb_enc n))%nat.
Proof.
  unfold uleb_enc. destruct (N.ltb_spec n 128) as [Hlt|Hge].
  - rewrite uleb_enc_fuel_small by exact Hlt. apply Nat.le_refl.
  - rewrite uleb_enc_fuel_big by exact Hge. apply le_n_S, Nat.le_0_l.
Qed.

Lemma uleb_enc_fuel_wf f n : wf_bytes (uleb_enc_fuel f n).
Proof.
  revert n; induction f as [|f IH]; intros n; [apply wf_bytes_nil|].
  destruct (N.ltb_spec n 128) as [Hlt|Hge].
  - rewrite uleb_enc_fuel_small by exact Hlt.
    apply wf_bytes_cons. split; [unfold is_byte; lia | apply wf_bytes_nil].
  - rewrite uleb_enc_fuel_big by exact Hge.
    apply wf_bytes_cons. split; [unfold is_byte; lia | apply IH].
Qed.

Lemma uleb_enc_wf n : wf_bytes (uleb_enc n).
Proof. unfold uleb_enc. apply uleb_enc_fuel_wf. Qed.

Lemma uleb_enc_fuel_length f n k :
  n < 128 * 2 ^ (7 * N.of_nat k) -> (length (uleb_enc_fuel f n) <= S k)%nat.
Proof.
  revert n k; induction f as [|f IH]; intros n k Hn; [cbn [uleb_enc_fuel length]; lia|].
  destruct (N.ltb_spec n 128) as [Hlt|Hge].
  - rewrite uleb_enc_fuel_small by exact Hlt. cbn [length]. lia.
  - rewrite uleb_enc_fuel_big by exact Hge. cbn [length].
    assert (Hd : n / 128 < 2 ^ (7 * N.of_nat k)) by (apply N.div_lt_upper_bound; lia).
    destruct k as [|k'].
    + exfalso. change (2 ^ (7 * N.of_nat 0)) with 1 in Hd. lia.
    + rewrite pow2_7_succ in Hd. specialize (IH (n / 128) k' Hd). lia.
Qed.

Lemma uleb_enc_bound n k : n < 128 * 2 ^ (7 * N.of_nat k) -> (length (uleb_enc n) <= S k)%nat.
Proof. unfold uleb_enc. apply uleb_enc_fuel_length. Qed.

Lemma uleb_enc_length n : (length (uleb_enc n) <= S (N.size_nat n / 7))%nat.
Proof.
  apply uleb_enc_bound.
  pose proof (size_nat_gt n) as Hn.
  eapply N.lt_le_trans; [exact Hn|].
  change 128 with (2 ^ 7). rewrite <- N.pow_add_r.
  apply N.pow_le_mono_r; lia.
Qed.

(** ** Decoding what the specification encoder wrote *)

(** Both decoders are covered by one induction: a decoder [D] that steps like
    [uleb_dec_aux] as long as the accumulated value stays below [lim] reads
    back what the encoder wrote. *)
Section DecEnc.
  Variable D : bytes -> N -> N -> option (N * bytes).
  Variable lim : N.
  Hypothesis D_cons : forall b r shift acc,
    b < 256 -> acc < 2 ^ shift -> acc + b mod 128 * 2 ^ shift < lim ->
    D (b :: r) shift acc =
    if b <? 128 then Some (acc + b mod 128 * 2 ^ shift, r)
    else D r (shift + 7) (acc + b mod 128 * 2 ^ shift).

  Lemma dec_enc_fuel f n rest shift acc :
    enough f n -> f <> O -> acc < 2 ^ shift -> acc + n * 2 ^ shift < lim ->
    D (uleb_enc_fuel f n ++ rest) shift acc = Some (acc + n * 2 ^ shift, rest).
  Proof.
    revert n shift acc; induction f as [|f IH]; intros n shift acc He Hf Hacc Hv; [congruence|].
    destruct (N.ltb_spec n 128) as [Hlt|Hge].
    - rewrite uleb_enc_fuel_small by exact Hlt. cbn [app].
      rewrite D_cons; rewrite ?(N.mod_small n 128 Hlt); [|lia | exact Hacc | exact Hv].
      destruct (N.ltb_spec n 128) as [_|Hge]; [reflexivity | lia].
    - rewrite uleb_enc_fuel_big by exact Hge. cbn [app].
      assert (Hm : n mod 128 < 128) by (apply N.mod_lt; discriminate).
      destruct (enough_step f n He Hge) as [f' [Hf' He']].
      pose proof (split7 n (2 ^ shift)) as Hn. rewrite <- Hn in Hv |- *. clear Hn.
      (* from here on the two halves of [n] are just numbers *)
      generalize dependent (n / 128). generalize dependent (n mod 128). clear n Hge He. intros m Hm d Hv He'.
      rewrite D_cons; rewrite ?(cont_byte_mod _ Hm); [|lia | exact Hacc | lia].
      destruct (N.ltb_spec (m + 128) 128) as [Hlt|_]; [lia|].
      rewrite IH.
      + rewrite pow2_shift7, N.add_assoc. reflexivity.
      + exact He'.
      + rewrite Hf'. discriminate.
      + rewrite pow2_shift7. apply acc_bound; assumption.
      + rewrite pow2_shift7, <- N.add_assoc. exact Hv.
  Qed.

  Lemma dec_enc n rest : n < lim -> D (uleb_enc n ++ rest) 0 0 = Some (n, rest).
  Proof.
    intros Hn. unfold uleb_enc.
    rewrite dec_enc_fuel, N.pow_0_r
      by first [apply enough_init | discriminate | rewrite N.pow_0_r; lia].
    f_equal. f_equal. lia.
  Qed.
End DecEnc.

(** [uleb_dec_aux] steps that way whatever the limit: take one just above [n] *)
Lemma uleb_dec_enc n rest : uleb_dec (uleb_enc n ++ rest) = Some (n, rest).
Proof. apply (dec_enc uleb_dec_aux (n + 1)); [reflexivity | lia]. Qed.

Lemma uleb_dec_aux_local : forall bs shift acc n r,
  uleb_dec_aux bs shift acc = Some (n, r) ->
  exists pre, bs = pre ++ r /\ (1 <= length pre)%nat /\
              forall rest, uleb_dec_aux (pre ++ rest) shift acc = Some (n, rest).
Proof.
  induction bs as [|b bs IH]; intros shift acc n r H; [discriminate H|].
  cbn [uleb_dec_aux] in H. destruct (b <? 128) eqn:E.
  - injection H as <- <-. exists [b]. split; [reflexivity|]. split; [cbn [length]; lia|].
    intros rest. cbn [app uleb_dec_aux]. rewrite E. reflexivity.
  - destruct (IH _ _ _ _ H) as (pre & -> & _ & Hpre). exists (b :: pre). split; [reflexivity|].
    split; [cbn [length]; lia|]. intros rest. cbn [app uleb_dec_aux]. rewrite E. apply Hpre.
Qed.

(** ** rle.go leb128 *)

Lemma mask_hi_eq v : v < 2 ^ 32 -> N.land v 4294967168 = v / 128 * 128.
Proof.
  intros Hv.
  change 4294967168 with (N.ldiff (N.ones 32) (N.ones 7)).
  assert (H : N.land v (N.ldiff (N.ones 32) (N.ones 7)) = N.ldiff (N.land v (N.ones 32)) (N.ones 7)).
  { apply N.bits_inj. intros i.
    rewrite N.land_spec, !N.ldiff_spec, N.land_spec. apply andb_assoc. }
  rewrite H, N.land_ones, N.mod_small by exact Hv.
  rewrite N.ldiff_ones_r, N.shiftl_mul_pow2, N.shiftr_div_pow2. reflexivity.
Qed.

Lemma leb128_go_fuel_spec f v : v < 2 ^ 32 -> leb128_go_fuel f v = uleb_enc_fuel f v.
Proof.
  revert v; induction f as [|f IH]; intros v Hv; [reflexivity|].
  cbn [leb128_go_fuel]. rewrite mask_hi_eq by exact Hv. rewrite land_127, N.shiftr_div_pow2. change (2 ^ 7) with 128.
  destruct (N.ltb_spec v 128) as [Hlt|Hge].
  - rewrite uleb_enc_fuel_small by exact Hlt.
    destruct (N.eqb_spec (v / 128 * 128) 0) as [_|Hne]; [|lia].
    rewrite N.mod_small by exact Hlt. reflexivity.
  - rewrite uleb_enc_fuel_big by exact Hge.
    destruct (N.eqb_spec (v / 128 * 128) 0) as [He|_]; [lia|].
    rewrite lor_128 by lia. rewrite IH; [reflexivity|].
    apply N.div_lt_upper_bound; lia.
Qed.

Lemma leb128_go_spec v : v < 2 ^ 32 -> leb128_go v = uleb_enc v.
Proof. intros Hv. unfold leb128_go, uleb_enc. apply leb128_go_fuel_spec. exact Hv. Qed.

(** ** rle.go readLEB128 *)

Lemma read_leb128_go_cons b r shift acc :
  b < 256 -> acc < 2 ^ shift -> acc + b mod 128 * 2 ^ shift < 2 ^ 64 ->
  read_leb128_go (b :: r) shift acc =
  if b <? 128 then Some (acc + b mod 128 * 2 ^ shift, r)
  else read_leb128_go r (shift + 7) (acc + b mod 128 * 2 ^ shift).
Proof.
  intros Hb Hacc Hv. cbn [read_leb128_go].
  rewrite land_128_byte, land_127, N.shiftl_mul_pow2 by exact Hb.
  rewrite N.mod_small by lia. rewrite lor_disjoint by exact Hacc. reflexivity.
Qed.

Lemma read_leb128_go_enc f n rest shift acc :
  enough f n -> f <> O ->
  acc < 2 ^ shift -> acc + n * 2 ^ shift < 2 ^ 64 ->
  read_leb128_go (uleb_enc_fuel f n ++ rest) shift acc = Some (acc + n * 2 ^ shift, rest).
Proof.
  apply dec_enc_fuel, read_leb128_go_cons.
Qed.

Lemma read_leb128_go_spec n rest :
  n < 2 ^ 64 -> read_leb128_go (uleb_enc n ++ rest) 0 0 = Some (n, rest).
Proof. apply dec_enc, read_leb128_go_cons. Qed.

(** ** Zig-zag *)

Lemma even_half n : n = 2 * (n / 2) + (if N.even n then 0 else 1).
Proof.
  rewrite (N.div_mod n 2) at 1 by discriminate. f_equal.
  rewrite <- N.bit0_mod, N.bit0_odd, <- N.negb_even. destruct (N.even n); reflexivity.
Qed.

Lemma unzigzag_zigzag z : unzigzag (zigzag z) = z.
Proof.
  unfold unzigzag, zigzag.
  pose proof (even_half (Z.to_N (if (z <? 0)%Z then -2 * z - 1 else 2 * z)%Z)) as E.
  destruct (Z.ltb_spec z 0), (N.even _); lia.
Qed.

Lemma zigzag_unzigzag n : zigzag (unzigzag n) = n.
Proof.
  unfold unzigzag, zigzag. pose proof (even_half n) as E.
  destruct (N.even n); cbv iota; destruct (_ <? 0)%Z eqn:L; lia.
Qed.

Print Assumptions uleb_dec_enc.
Print Assumptions leb128_go_spec.
Print Assumptions read_leb128_go_spec.
Print Assumptions uleb_enc_length.
Print Assumptions unzigzag_zigzag.
Print Assumptions zigzag_unzigzag.
