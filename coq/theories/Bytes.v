(** * Bytes: byte strings, little-endian fixed width, two's complement.

    Conventions of the whole development (see DESIGN.md §3):
    - a byte is an [N] below 256, a byte string is a [list N]; well-formedness
      is carried separately by [wf_bytes];
    - lengths, indices, fuel are [nat]; anything data dependent is [N]/[Z]. *)
From Coq Require Import List NArith ZArith Lia Bool.
From Coq Require Import ZifyN ZifyNat ZifyBool.
Import ListNotations.
Local Open Scope N_scope.

Ltac Zify.zify_post_hook ::= Z.div_mod_to_equations.

(** ** Lists *)

Lemma Forall_firstn_skipn {A} (P : A -> Prop) n l :
  Forall P l -> Forall P (firstn n l) /\ Forall P (skipn n l).
Proof. intros H. rewrite <- (firstn_skipn n l) in H. apply Forall_app in H. exact H. Qed.

Lemma skipn_app_exact {A} (a b : list A) : skipn (length a) (a ++ b) = b.
Proof. rewrite skipn_app, Nat.sub_diag, skipn_all. reflexivity. Qed.

Lemma firstn_app_exact {A} (a b : list A) : firstn (length a) (a ++ b) = a.
Proof. rewrite firstn_app, Nat.sub_diag, firstn_all, firstn_O, app_nil_r. reflexivity. Qed.

Lemma firstn_app_len {A} (n : nat) (a b : list A) : length a = n -> firstn n (a ++ b) = a.
Proof. intros <-. apply firstn_app_exact. Qed.

Lemma skipn_app_len {A} (n : nat) (a b : list A) : length a = n -> skipn n (a ++ b) = b.
Proof. intros <-. apply skipn_app_exact. Qed.

Lemma skipn_add {A} (a b : nat) (l : list A) : skipn (a + b) l = skipn b (skipn a l).
Proof.
  revert l; induction a as [|a IH]; intros l; [reflexivity|].
  destruct l as [|x l]; cbn [Nat.add skipn]; [destruct b; reflexivity | apply IH].
Qed.

Lemma firstn_add {A} (a b : nat) (l : list A) : firstn (a + b) l = firstn a l ++ firstn b (skipn a l).
Proof.
  revert l; induction a as [|a IH]; intros l; [reflexivity|].
  destruct l as [|x l]; cbn [Nat.add firstn skipn app]; [destruct b; reflexivity | rewrite IH; reflexivity].
Qed.

Lemma skipn_cons_nth {A} : forall k (l : list A) c r,
  skipn k l = c :: r -> nth_error l k = Some c /\ skipn (S k) l = r.
Proof.
  induction k as [|k IH]; intros l c r H; destruct l as [|x l]; try discriminate H.
  - cbn [skipn] in H. injection H as -> ->. split; reflexivity.
  - cbn [skipn nth_error] in H |- *. apply IH. exact H.
Qed.

Lemma nth_error_lt {A} i (l : list A) : (i < length l)%nat -> exists x, nth_error l i = Some x.
Proof.
  intros H. destruct (nth_error l i) as [x|] eqn:E; [exists x; reflexivity|].
  apply nth_error_None in E. lia.
Qed.

Lemma Forall2_same_length {A B} (R : A -> B -> Prop) l l' : Forall2 R l l' -> length l = length l'.
Proof. induction 1 as [|x y l l' Hxy Hrest IH]; cbn [length]; [reflexivity | rewrite IH; reflexivity]. Qed.

Lemma Forall2_nth_intro {A B} (R : A -> B -> Prop) : forall l l',
  length l = length l' ->
  (forall i x y, nth_error l i = Some x -> nth_error l' i = Some y -> R x y) ->
  Forall2 R l l'.
Proof.
  induction l as [|a l IH]; intros [|b l'] Hlen H; cbn [length] in Hlen; try discriminate; constructor.
  - apply (H 0%nat); reflexivity.
  - apply IH; [lia|]. intros i x y Hx Hy. apply (H (S i)); assumption.
Qed.

Lemma Forall2_In_r {A B} (R : A -> B -> Prop) l l' y :
  Forall2 R l l' -> In y l' -> exists x, In x l /\ R x y.
Proof.
  induction 1 as [|a b l l' Hab Hll IH]; intros Hin; [destruct Hin|].
  destruct Hin as [->|Hin].
  - exists a. split; [left; reflexivity | exact Hab].
  - destruct (IH Hin) as (x & Hx & Hr). exists x. split; [right; exact Hx | exact Hr].
Qed.

Lemma Forall2_map_l_In {A B C} (R : A -> C -> Prop) (R' : B -> C -> Prop) (f : A -> B) l l' :
  (forall x y, In x l -> R x y -> R' (f x) y) -> Forall2 R l l' -> Forall2 R' (map f l) l'.
Proof.
  intros H HF. induction HF as [|x y l l' Hxy _ IH]; cbn [map]; constructor.
  - apply H; [left; reflexivity | exact Hxy].
  - apply IH. intros a b Ha. apply H. right. exact Ha.
Qed.

Lemma Forall2_flat_map {A B C D} (R : C -> D -> Prop) (g : A -> list C) (h : B -> list D) xs ys :
  Forall2 (fun x y => Forall2 R (g x) (h y)) xs ys -> Forall2 R (flat_map g xs) (flat_map h ys).
Proof.
  induction 1 as [|x y xs ys Hxy Hrest IH]; cbn [flat_map]; [constructor|].
  apply Forall2_app; assumption.
Qed.

Lemma concat_flat_map_map {A B C} (g : A -> B -> list C) (ys : list B) (xs : list A) :
  concat (flat_map (fun x => map (g x) ys) xs) = flat_map (fun x => flat_map (g x) ys) xs.
Proof.
  induction xs as [|x xs IH]; [reflexivity|].
  cbn [flat_map]. rewrite concat_app, IH, <- flat_map_concat_map. reflexivity.
Qed.

(** ** Byte strings *)

Definition byte := N.
Definition bytes := list N.

Definition is_byte (b : N) : Prop := b < 256.
Definition wf_bytes (bs : bytes) : Prop := Forall is_byte bs.

Definition is_byteb (b : N) : bool := b <? 256.
Definition wf_bytesb (bs : bytes) : bool := forallb is_byteb bs.

Lemma wf_bytesb_spec bs : wf_bytesb bs = true <-> wf_bytes bs.
Proof.
  unfold wf_bytesb, wf_bytes. rewrite forallb_forall, Forall_forall.
  unfold is_byteb, is_byte. split; intros H x Hx; specialize (H x Hx); lia.
Qed.

Lemma wf_bytes_app a b : wf_bytes (a ++ b) <-> wf_bytes a /\ wf_bytes b.
Proof. unfold wf_bytes. apply Forall_app. Qed.

Lemma wf_bytes_nil : wf_bytes [].
Proof. constructor. Qed.

Lemma wf_bytes_cons b bs : wf_bytes (b :: bs) <-> is_byte b /\ wf_bytes bs.
Proof. apply Forall_cons_iff. Qed.

Lemma wf_bytes_concat (l : list bytes) : Forall wf_bytes l -> wf_bytes (concat l).
Proof.
  induction 1 as [|x l Hx Hl IH]; cbn [concat]; [constructor|].
  apply wf_bytes_app; auto.
Qed.

Lemma wf_bytes_firstn n bs : wf_bytes bs -> wf_bytes (firstn n bs).
Proof. intros H. apply (Forall_firstn_skipn _ n bs H). Qed.

Lemma wf_bytes_skipn n bs : wf_bytes bs -> wf_bytes (skipn n bs).
Proof. intros H. apply (Forall_firstn_skipn _ n bs H). Qed.

(** ** Little-endian fixed width *)

Fixpoint le_enc (k : nat) (n : N) : bytes :=
  match k with
  | O => []
  | S k' => (n mod 256) :: le_enc k' (n / 256)
  end.

Fixpoint le_dec (bs : bytes) : N :=
  match bs with
  | [] => 0
  | b :: r => b + 256 * le_dec r
  end.

Lemma le_enc_length k n : length (le_enc k n) = k.
Proof. revert n; induction k as [|k IH]; intros n; cbn [le_enc length]; auto. Qed.

Lemma le_enc_wf k n : wf_bytes (le_enc k n).
Proof.
  revert n; induction k as [|k IH]; intros n; cbn [le_enc]; [constructor|].
  constructor; [unfold is_byte; lia | apply IH].
Qed.

Lemma pow256_succ k : 256 ^ N.of_nat (S k) = 256 * 256 ^ N.of_nat k.
Proof. rewrite Nat2N.inj_succ, N.pow_succ_r'. reflexivity. Qed.

Lemma le_dec_enc k n : n < 256 ^ N.of_nat k -> le_dec (le_enc k n) = n.
Proof.
  revert n; induction k as [|k IH]; intros n Hn.
  - cbn in Hn. cbn. lia.
  - rewrite pow256_succ in Hn. cbn [le_enc le_dec].
    rewrite IH by (apply N.div_lt_upper_bound; lia).
    pose proof (N.div_mod n 256). lia.
Qed.

Lemma le_dec_bound bs : wf_bytes bs -> le_dec bs < 256 ^ N.of_nat (length bs).
Proof.
  induction 1 as [|b r Hb Hr IH]; cbn [le_dec length].
  - cbn. lia.
  - rewrite pow256_succ. unfold is_byte in Hb. lia.
Qed.

Lemma le_enc_dec bs : wf_bytes bs -> le_enc (length bs) (le_dec bs) = bs.
Proof.
  induction 1 as [|b r Hb Hr IH]; cbn [le_dec length le_enc]; auto.
  unfold is_byte in Hb.
  replace ((b + 256 * le_dec r) mod 256) with b by lia.
  replace ((b + 256 * le_dec r) / 256) with (le_dec r) by lia.
  rewrite IH. reflexivity.
Qed.

Lemma le_enc_inj k a b :
  a < 256 ^ N.of_nat k -> b < 256 ^ N.of_nat k -> le_enc k a = le_enc k b -> a = b.
Proof.
  intros Ha Hb H. rewrite <- (le_dec_enc k a Ha), <- (le_dec_enc k b Hb), H. reflexivity.
Qed.

Definition take_le (k : nat) (bs : bytes) : option (N * bytes) :=
  if Nat.leb k (length bs) then Some (le_dec (firstn k bs), skipn k bs) else None.

Lemma take_le_enc k n rest :
  n < 256 ^ N.of_nat k -> take_le k (le_enc k n ++ rest) = Some (n, rest).
Proof.
  intros Hn. unfold take_le.
  rewrite app_length, le_enc_length.
  replace (Nat.leb k (k + length rest)) with true by (symmetry; apply Nat.leb_le; lia).
  rewrite (firstn_app_len k), (skipn_app_len k), le_dec_enc by (assumption || apply le_enc_length).
  reflexivity.
Qed.

Lemma take_le_inv k bs x rest :
  take_le k bs = Some (x, rest) ->
  (k <= length bs)%nat /\ le_dec (firstn k bs) = x /\ skipn k bs = rest.
Proof.
  unfold take_le. destruct (Nat.leb_spec k (length bs)) as [H|H]; [|discriminate].
  intros E. injection E as <- <-. split; [exact H | split; reflexivity].
Qed.

(** ** Two's complement views of machine integers *)

Definition wrapN (bits : N) (z : Z) : N := Z.to_N (z mod 2 ^ Z.of_N bits).
Definition signZ (bits : N) (n : N) : Z :=
  if n <? 2 ^ (bits - 1) then Z.of_N n else Z.of_N n - 2 ^ Z.of_N bits.

Lemma wrapN_bound bits z : wrapN bits z < 2 ^ bits.
Proof.
  unfold wrapN.
  assert (0 < 2 ^ Z.of_N bits)%Z by (apply Z.pow_pos_nonneg; lia).
  pose proof (Z.mod_pos_bound z (2 ^ Z.of_N bits) H).
  assert (Z.of_N (2 ^ bits) = 2 ^ Z.of_N bits)%Z by (rewrite N2Z.inj_pow; reflexivity).
  lia.
Qed.

Lemma signZ_wrapN bits z :
  0 < bits ->
  (- 2 ^ (Z.of_N bits - 1) <= z < 2 ^ (Z.of_N bits - 1))%Z ->
  signZ bits (wrapN bits z) = z.
Proof.
  intros Hb Hz. unfold signZ, wrapN.
  assert (Hp : (2 ^ Z.of_N bits = 2 * 2 ^ (Z.of_N bits - 1))%Z).
  { rewrite <- Z.pow_succ_r by lia. f_equal. lia. }
  assert (Hq : Z.of_N (2 ^ (bits - 1)) = (2 ^ (Z.of_N bits - 1))%Z).
  { rewrite N2Z.inj_pow, N2Z.inj_sub by lia. reflexivity. }
  (* with the two powers as variables the rest is linear: z mod 2h is z or z + 2h *)
  rewrite Hp. clear Hp Hb.
  generalize dependent (2 ^ (Z.of_N bits - 1))%Z. generalize (2 ^ (bits - 1)).
  intros q h Hz Hq.
  destruct (Z.ltb_spec z 0).
  - replace (z mod (2 * h))%Z with (z + 2 * h)%Z by (apply Z.mod_unique_pos with (q := (-1)%Z); lia).
    destruct (N.ltb_spec (Z.to_N (z + 2 * h)) q); lia.
  - rewrite Z.mod_small by lia. destruct (N.ltb_spec (Z.to_N z) q); lia.
Qed.

(** ** Positional overwrite *)

Fixpoint update_at (i : nat) (x : N) (l : bytes) : bytes :=
  match l, i with
  | [], _ => []
  | _ :: r, O => x :: r
  | y :: r, S i' => y :: update_at i' x r
  end.

Lemma update_at_length i x l : length (update_at i x l) = length l.
Proof. revert i; induction l as [|y r IH]; intros [|i]; cbn; auto. Qed.

Lemma update_at_app_mid a y b x :
  update_at (length a) x (a ++ y :: b) = a ++ x :: b.
Proof. induction a as [|z a IH]; cbn; [reflexivity | rewrite IH; reflexivity]. Qed.

(** ** Lengths and sums as [N] *)

Fixpoint sumN (l : list N) : N :=
  match l with [] => 0 | x :: r => x + sumN r end.

Lemma sumN_app a b : sumN (a ++ b) = sumN a + sumN b.
Proof. induction a as [|x a IH]; cbn [sumN app]; lia. Qed.

Definition nlen {A} (l : list A) : N := N.of_nat (length l).

Lemma nlen_app {A} (a b : list A) : nlen (a ++ b) = nlen a + nlen b.
Proof. unfold nlen. rewrite app_length. lia. Qed.

Lemma nlen_skipn_le {A} k (l : list A) : nlen (skipn k l) <= nlen l.
Proof. unfold nlen. rewrite skipn_length. lia. Qed.

Lemma sumN_nlen_concat {A} (bs : list (list A)) : sumN (map (@nlen A) bs) = nlen (concat bs).
Proof.
  induction bs as [|b bs' IH]; [reflexivity|].
  cbn [map sumN concat]. rewrite nlen_app, IH. reflexivity.
Qed.
