(** * ReaderProofs: the reader model on what the writer model wrote — the
    source primitives on a fault-free source, and one page.  Chunks, row groups
    and the file are those of ReaderLayers.v; ReaderProofs2.v instantiates them
    on the written file (property C01). *)
From Coq Require Import List NArith ZArith Lia Bool Arith PeanoNat.
From Coq Require Import ZifyN ZifyNat ZifyBool.
From PQ Require Import Bytes Schema Dremel DremelProofs BitpackProofs Rle RleProofs Plain PlainProofs
     Stats StatsProofs MetaTypes Thrift Meta MetaProofs Writer PageProofs Io IoProofs Reader.
Import ListNotations.
Local Open Scope N_scope.

Definition rem (s : src) : bytes := skipn (N.to_nat (s_pos s)) (s_file s).

Definition adv (s : src) (n : nat) (s' : src) : Prop :=
  s_file s' = s_file s /\ s_fail s' = None /\ s_pos s' = s_pos s + N.of_nat n.

Lemma rem_adv {s n s'} : adv s n s' -> rem s' = skipn n (rem s).
Proof.
  intros (Hf & _ & Hp). unfold rem. rewrite Hf, Hp, <- skipn_add. f_equal. lia.
Qed.

Lemma rem_adv_app {s x rest s'} : rem s = x ++ rest -> adv s (length x) s' -> rem s' = rest.
Proof. intros Hr Ha. rewrite (rem_adv Ha), Hr. apply skipn_app_exact. Qed.

Lemma adv_fail {s n s'} : adv s n s' -> s_fail s' = None.
Proof. intros (_ & H & _). exact H. Qed.

Lemma adv_trans {s a s1 b s2} : adv s a s1 -> adv s1 b s2 -> adv s (a + b) s2.
Proof.
  intros (Hf1 & _ & Hp1) (Hf2 & Hn2 & Hp2). unfold adv. rewrite Hf2, Hf1, Hp2, Hp1.
  repeat split; auto. lia.
Qed.

Lemma adv_refl s : s_fail s = None -> adv s 0 s.
Proof. intros H. unfold adv. repeat split; auto. lia. Qed.

Definition ticked (s : src) : src :=
  {| s_file := s_file s; s_pos := s_pos s; s_sched := s_sched s; s_fail := s_fail s; s_ops := S (s_ops s) |}.

Lemma adv_ticked s n s' : adv (ticked s) n s' -> adv s n s'.
Proof. intros H. exact H. Qed.

Definition reads {A} (m : M A) (b : bytes) (a : A) : Prop :=
  forall s rest, s_fail s = None -> rem s = b ++ rest ->
                 exists s', m s = Ok (a, s') /\ adv s (length b) s'.

Definition fails {A} (m : M A) (b : bytes) : Prop :=
  forall s rest, s_fail s = None -> rem s = b ++ rest -> m s = Err.

Lemma m_read_full_ok x : reads (m_read_full (length x)) x x.
Proof.
  intros s rest Hfail Hrem. destruct (IoProofs.m_read_full_ok (length x) s Hfail) as (s' & Hrd & Hl).
  - change (avail s) with (rem s). rewrite Hrem, app_length. lia.
  - change (avail s) with (rem s) in Hrd. rewrite Hrem, firstn_app_exact in Hrd. exists s'. split; assumption.
Qed.

Lemma m_read_struct_ok {A} (dec : bytes -> option (A * bytes)) a x :
  (forall rest, dec (x ++ rest) = Some (a, rest)) -> reads (m_read_struct dec) x a.
Proof.
  intros Hdec s rest Hfail Hrem. specialize (Hdec rest). rewrite <- Hrem in Hdec.
  destruct (IoProofs.m_read_struct_ok dec s a rest Hfail Hdec) as (s' & Hrd & Hl).
  exists s'. split; [exact Hrd|]. change (avail s) with (rem s) in Hl.
  rewrite Hrem, app_length, Nat.add_sub in Hl. exact Hl.
Qed.

Lemma reads_ret {A} (a : A) : reads (ret a) [] a.
Proof. intros s rest Hfail _. exists s. split; [reflexivity | apply adv_refl; exact Hfail]. Qed.

Lemma reads_bind {A B} (m : M A) (f : A -> M B) b1 a b2 c :
  reads m b1 a -> reads (f a) b2 c -> reads (bind m f) (b1 ++ b2) c.
Proof.
  intros Hm Hf s rest Hfail Hrem. rewrite <- app_assoc in Hrem.
  destruct (Hm s _ Hfail Hrem) as (s1 & H1 & Hadv1). rewrite (bind_ok H1).
  destruct (Hf s1 rest (adv_fail Hadv1) (rem_adv_app Hrem Hadv1)) as (s2 & H2 & Hadv2).
  exists s2. split; [exact H2|]. rewrite app_length. exact (adv_trans Hadv1 Hadv2).
Qed.

Lemma fails_bind {A B} (m : M A) (f : A -> M B) b : fails m b -> fails (bind m f) b.
Proof. intros Hm s rest Hfail Hrem. unfold bind. rewrite (Hm s rest Hfail Hrem). reflexivity. Qed.

Lemma fails_app {A} (m : M A) b tail : fails m b -> fails m (b ++ tail).
Proof. intros Hm s rest Hfail Hrem. rewrite <- app_assoc in Hrem. exact (Hm s _ Hfail Hrem). Qed.

Lemma reads_fails_bind {A B} (m : M A) (f : A -> M B) b1 a b2 :
  reads m b1 a -> fails (f a) b2 -> fails (bind m f) (b1 ++ b2).
Proof.
  intros Hm Hf s rest Hfail Hrem. rewrite <- app_assoc in Hrem.
  destruct (Hm s _ Hfail Hrem) as (s1 & H1 & Hadv1). rewrite (bind_ok H1).
  exact (Hf s1 rest (adv_fail Hadv1) (rem_adv_app Hrem Hadv1)).
Qed.

Lemma rem_at s pre post : s_file s = pre ++ post -> s_pos s = nlen pre -> rem s = post.
Proof.
  intros Hf Hp. unfold rem. rewrite Hf, Hp. unfold nlen. rewrite Nat2N.id. apply skipn_app_exact.
Qed.

Lemma pow32 : 2 ^ 32 = 4294967296. Proof. reflexivity. Qed.

Lemma bit_width_eq n : Writer.bit_width n = Reader.bit_width n.
Proof. reflexivity. Qed.

Lemma col_required_true c : col_required c = true -> max_def c = 0 /\ max_rep c = 0.
Proof. intros H. apply col_required_max_def in H. pose proof (max_rep_le_max_def c). lia. Qed.

Lemma entry_vals_concat l : entry_vals (concat l) = concat (map entry_vals l).
Proof.
  induction l as [|x l IH]; [reflexivity|].
  cbn [concat map]. rewrite entry_vals_app, IH. reflexivity.
Qed.

Definition page_reps (c : col) (es : list entry) : list N :=
  if 0 <? max_rep c then map e_rep es else [].

Lemma page_reps_concat c ess : concat (map (page_reps c) ess) = page_reps c (concat ess).
Proof.
  unfold page_reps. destruct (0 <? max_rep c); [symmetry; apply concat_map|].
  apply concat_nil_Forall, Forall_map, Forall_forall. reflexivity.
Qed.

Lemma zip_levels_entries c es : forall rs,
  lev_ok c es -> rs = map e_rep es \/ rs = [] /\ max_rep c = 0 ->
  zip_levels rs (map e_def es) (max_def c) (entry_vals es) = es.
Proof.
  unfold lev_ok. induction es as [|[r d ov] es IH]; intros rs Hlev Hrs; [reflexivity|].
  inversion Hlev as [|e es' He Hes]; subst e es'.
  apply entry_levels_ok_inv in He. cbn [e_rep e_def e_val] in He. destruct He as (Hrep & _ & He).
  assert (Hhd : match rs with r0 :: _ => r0 | [] => 0 end = r)
    by (destruct Hrs as [->|[-> H0]]; [reflexivity | lia]).
  assert (Htl : match rs with _ :: t => t | [] => [] end = map e_rep es \/
                match rs with _ :: t => t | [] => [] end = [] /\ max_rep c = 0)
    by (destruct Hrs as [->|[-> H0]]; [left; reflexivity | right; split; [reflexivity | exact H0]]).
  rewrite entry_vals_cons. cbn [map zip_levels e_def e_val]. rewrite Hhd.
  destruct ov as [v|]; cbn [app].
  - replace (d =? max_def c) with true by lia. rewrite (IH _ Hes Htl). reflexivity.
  - replace (d =? max_def c) with false by lia. rewrite (IH _ Hes Htl). reflexivity.
Qed.

Lemma zip_levels_page_reps c es :
  lev_ok c es -> zip_levels (page_reps c es) (map e_def es) (max_def c) (entry_vals es) = es.
Proof.
  intros Hlev. apply (zip_levels_entries c es _ Hlev). unfold page_reps.
  destruct (0 <? max_rep c) eqn:E; [left; reflexivity | right; split; [reflexivity | lia]].
Qed.

Lemma required_entries c es :
  col_required c = true -> lev_ok c es ->
  map (fun v => {| e_rep := 0; e_def := 0; e_val := Some v |}) (entry_vals es) = es.
Proof.
  intros Hreq. destruct (col_required_true c Hreq) as [Hd Hr].
  unfold lev_ok. induction 1 as [|e es He Hes IH]; [reflexivity|].
  apply entry_levels_ok_inv in He. destruct He as (Hrep & Hdef & He).
  rewrite entry_vals_cons.
  destruct e as [r d [v|]]; cbn [e_val e_def e_rep app map] in He, Hrep, Hdef |- *.
  - rewrite IH. f_equal. f_equal; lia.
  - lia.
Qed.

Lemma required_count c es :
  col_required c = true -> lev_ok c es -> length (entry_vals es) = length es.
Proof.
  intros Hreq Hlev. rewrite <- (required_entries c es Hreq Hlev) at 2. rewrite map_length. reflexivity.
Qed.

Lemma filter_nlen_le {A} (f : A -> bool) l : nlen (filter f l) <= nlen l.
Proof. unfold nlen. pose proof (filter_length_le' f l). lia. Qed.

Lemma page_stats_ok p required maxdef es :
  Forall (leaf_ok p) (entry_vals es) ->
  Forall (fun v => nlen (str_of v) < 2 ^ 31) (entry_vals es) ->
  nlen es < 2 ^ 31 ->
  statistics_ok (page_stats p required maxdef es) = true.
Proof.
  intros Hty Hstr Hlen. apply page_stats_statistics_ok; [exact Hlen|].
  apply pvals_sub. rewrite Forall_forall in *. intros v Hv.
  split; [exact (leaf_ok_wf p v (Hty v Hv)) | exact (Hstr v Hv)].
Qed.

Lemma plain_enc_concat p pages :
  p <> PBool -> concat (map (plain_enc p) pages) = plain_enc p (concat pages).
Proof.
  intros Hp. induction pages as [|pg pages IH]; cbn [map concat].
  - destruct p; reflexivity.
  - rewrite plain_enc_app, IH by exact Hp. reflexivity.
Qed.

Lemma decode_values_ok p pages n :
  Forall (Forall (leaf_ok p)) pages ->
  Forall (Forall (fun v => nlen (str_of v) < 2 ^ 31)) pages ->
  n = Z.of_nat (length (concat pages)) ->
  decode_values p n (concat (map (plain_enc p) pages)) (map (@length value) pages) = Ok (concat pages).
Proof.
  intros Hty Hstr Hn. subst n. unfold decode_values.
  replace (Z.of_nat (length (concat pages)) <? 0)%Z with false by lia. rewrite Nat2Z.id.
  assert (Hall : Forall (leaf_ok p) (concat pages)) by (apply Forall_concat; exact Hty).
  destruct p; cbv beta iota;
    try (rewrite plain_enc_concat by discriminate;
         rewrite <- (app_nil_r (plain_enc _ (concat pages)));
         match goal with
         | |- context [read_fixed (prim_size ?q)] => rewrite (read_fixed_concat q _ [] I Hall)
         end; reflexivity).
  - apply get_bools_pages. exact Hty.
  - rewrite plain_enc_concat by discriminate. rewrite <- (app_nil_r (plain_enc _ (concat pages))).
    apply read_strings_concat; [exact Hall | apply Forall_concat; exact Hstr].
Qed.

Lemma read_levels_rle w ls padding n data l :
  (l <= length data)%nat -> rle_read w (skipn l data) = Ok (ls ++ padding, n) ->
  read_levels w data l (Z.of_nat (length ls)) = Ok (ls, n).
Proof.
  intros Hl Hrle. unfold read_levels. rewrite Hrle.
  replace (Nat.ltb (length data) l) with false by lia.
  replace (Z.of_nat (length ls) <? 0)%Z with false by lia. rewrite Nat2Z.id, app_length.
  replace (Nat.ltb (length ls + length padding) (length ls)) with false by lia.
  cbn [orb]. rewrite firstn_app_exact. reflexivity.
Qed.

Lemma read_levels_ok w ls data l rest nv :
  In w widths -> Forall (fun v => v < 2 ^ w) ls -> N.of_nat (length ls) + 8 <= 2 ^ 31 ->
  (l <= length data)%nat -> skipn l data = rle_encode w ls ++ rest -> nv = Z.of_nat (length ls) ->
  read_levels w data l nv = Ok (ls, length (rle_encode w ls)).
Proof.
  intros Hw Hls Hlen Hl Hskip ->.
  destruct (rle_roundtrip w ls rest Hw Hls Hlen) as (pad & Hrt & _).
  apply (read_levels_rle w ls (repeat 0 pad)); [exact Hl | rewrite Hskip; exact Hrt].
Qed.

Section WithCodec.

Variable compress : Z -> bytes -> bytes.

Definition codec_ok (codec : Z) : Prop := In codec [CODEC_UNCOMPRESSED; CODEC_SNAPPY; CODEC_GZIP].

Record page_pre (codec : Z) (c : col) (es : list entry) : Prop := {
  pp_codec : codec_ok codec;
  pp_nonempty : es <> [];
  pp_levels : lev_ok c es;
  pp_typed : Forall (leaf_ok (c_prim c)) (entry_vals es);
  pp_count : nlen es + 8 <= 2 ^ 31;
  pp_payload : nlen (page_payload c es) < 2 ^ 31;
  pp_body : nlen (compress codec (page_payload c es)) < 2 ^ 31;
  pp_def : max_def c <= 15;
  pp_rep : max_rep c <= 15
}.

Lemma page_strs codec c es :
  page_pre codec c es -> Forall (fun v => nlen (str_of v) < 2 ^ 31) (entry_vals es).
Proof.
  intros Hpre. apply (plain_strs (c_prim c)); [exact (pp_typed _ _ _ Hpre)|].
  pose proof (page_payload_values_length c es). pose proof (pp_payload _ _ _ Hpre). unfold nlen in *. lia.
Qed.

Lemma make_page_header_ok codec c es :
  page_pre codec c es -> page_header_ok (pg_header (make_page compress codec c es)) = true.
Proof.
  intros Hpre. pose proof (pp_count _ _ _ Hpre) as Hcount.
  apply (page_hdr_ok compress codec c es); [exact (pp_typed _ _ _ Hpre) | lia | exact (pp_payload _ _ _ Hpre)].
Qed.

Definition page_bytes (p : page) : bytes := pg_header_bytes p ++ pg_body p.

Lemma page_bytes_length p : length (page_bytes p) = (length (pg_header_bytes p) + length (pg_body p))%nat.
Proof. unfold page_bytes. apply app_length. Qed.

Definition chunk_bytes (codec : Z) (c : col) (ess : list (list entry)) : bytes :=
  concat (map (fun es => page_bytes (make_page compress codec c es)) ess).

Lemma chunk_bytes_cons codec c es ess :
  chunk_bytes codec c (es :: ess) = page_bytes (make_page compress codec c es) ++ chunk_bytes codec c ess.
Proof. reflexivity. Qed.

Lemma page_bytes_pos codec c es : (1 <= length (page_bytes (make_page compress codec c es)))%nat.
Proof.
  rewrite page_bytes_length.
  pose proof (enc_page_header_nonempty (pg_header (make_page compress codec c es))) as H.
  change (enc_page_header (pg_header (make_page compress codec c es)))
    with (pg_header_bytes (make_page compress codec c es)) in H. lia.
Qed.

Lemma read_page_header codec c es :
  page_pre codec c es ->
  reads (m_read_struct dec_page_header) (pg_header_bytes (make_page compress codec c es))
        (pg_header (make_page compress codec c es)).
Proof.
  intros Hpre. apply m_read_struct_ok. intros rest.
  change (pg_header_bytes (make_page compress codec c es))
    with (enc_page_header (pg_header (make_page compress codec c es))).
  apply dec_enc_page_header, make_page_header_ok, Hpre.
Qed.

Definition page_dph (codec : Z) (c : col) (es : list entry) : data_page_header :=
  {| dph_num_values := i32 (nlen es); dph_encoding := ENC_PLAIN; dph_def_encoding := ENC_RLE;
     dph_rep_encoding := ENC_RLE;
     dph_statistics := Some (page_stats (c_prim c) (col_required c) (max_def c) es) |}.

Lemma supported_make_page codec c es defs reps :
  supported_page (pg_header (make_page compress codec c es)) defs reps = Some (page_dph codec c es).
Proof. destruct defs, reps; reflexivity. Qed.

Lemma page_num_values codec c es :
  page_pre codec c es -> dph_num_values (page_dph codec c es) = Z.of_nat (length es).
Proof.
  intros Hpre. pose proof (pp_count _ _ _ Hpre) as Hc. cbn [page_dph dph_num_values].
  rewrite i32_small by lia. unfold nlen. lia.
Qed.

Lemma make_page_sizes codec c es :
  page_pre codec c es ->
  ph_compressed_size (pg_header (make_page compress codec c es)) =
    Z.of_nat (length (compress codec (page_payload c es))) /\
  ph_uncompressed_size (pg_header (make_page compress codec c es)) = Z.of_nat (length (page_payload c es)).
Proof.
  intros Hpre. pose proof (pp_payload _ _ _ Hpre) as Hpl. pose proof (pp_body _ _ _ Hpre) as Hbl.
  cbn [make_page pg_header ph_compressed_size ph_uncompressed_size].
  rewrite !i32_small by assumption. unfold nlen. lia.
Qed.

End WithCodec.
