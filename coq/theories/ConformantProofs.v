(** * ConformantProofs: the reader model decodes every conformant file of the
    supported subset (the strong form of property C04).

    "Conformant" is [FileSpec.check_file decompress file = inr v]: the
    independent validator written from the format specification accepts the
    file.  No writer is involved anywhere: page headers and the footer are
    whatever bytes the thrift decoder accepts, level sections whatever the
    specification decoder [RleSpec.hybrid_decode_framed] accepts, values
    whatever the strict PLAIN decoder accepts.

    The two level decoders agree ([ConformantLevels]); the thrift decoder is
    local and returns int32s ([ConformantThrift]); here: the strict PLAIN
    decoder inverts [plain_enc]; a page accepted by [check_page] is a good
    page of [ReaderLayers]; chunks, row groups and the file are those of
    [ReaderLayers], located by the validator's offsets. *)
From Coq Require Import List NArith ZArith Lia Bool Arith PeanoNat.
From Coq Require Import ZifyN ZifyNat ZifyBool.
From PQ Require Import WriterProofs.
From PQ Require Import Bytes Schema Dremel DremelProofs BitpackProofs Rle RleSpec RleDecProofs
     Plain PlainProofs MetaTypes Thrift Meta PageProofs Io IoProofs Reader Introspect ReaderProofs ReaderLayers ReaderProofs2 FileSpec ForeignProofs
     ConformantLevels ConformantThrift.
Import ListNotations.
Local Open Scope N_scope.

(** ** A successful run of the validator read backwards: each of its tests is
    [if b then inl e else k] or a [match] that hands an error on.  Stated as
    eliminations, so that each test is consumed from the goal; a step names
    the error [e] of the test it consumes, and fails on any other test. *)

Lemma if_inl_inr {E A} (e : E) (b : bool) (k : E + A) y (G : Prop) :
  (b = false -> k = inr y -> G) -> (if b then inl e else k) = inr y -> G.
Proof. destruct b; [discriminate | auto]. Qed.

Lemma opt_inl_inr {E A B} (e : E) (o : option B) (k : B -> E + A) y (G : Prop) :
  (forall a, o = Some a -> k a = inr y -> G) -> match o with Some a => k a | None => inl e end = inr y -> G.
Proof. destruct o as [a|]; [eauto | discriminate]. Qed.

Lemma sum_inl_inr {E A B} (r : E + B) (k : B -> E + A) y (G : Prop) :
  (forall a, r = inr a -> k a = inr y -> G) -> match r with inl e => inl e | inr a => k a end = inr y -> G.
Proof. destruct r as [e|a]; [discriminate | eauto]. Qed.

Lemma skipn_slice a l f : skipn (N.to_nat a) f = slice a l f ++ skipn (N.to_nat (a + l)) f.
Proof. unfold slice. rewrite N2Nat.inj_add, skipn_add. symmetry. apply firstn_skipn. Qed.

Lemma slice_split a b c f : a <= b -> b <= c -> slice a (b - a) f ++ slice b (c - b) f = slice a (c - a) f.
Proof.
  intros Hab Hbc. unfold slice.
  replace (N.to_nat (c - a)) with (N.to_nat (b - a) + N.to_nat (c - b))%nat by lia.
  rewrite firstn_add, <- skipn_add.
  replace (N.to_nat a + N.to_nat (b - a))%nat with (N.to_nat b) by lia. reflexivity.
Qed.

(** ** The strict PLAIN decoder inverts the encoder on whatever it accepts *)

Lemma leaf_ok_vnum p x : numeric p -> x < 2 ^ prim_bits p -> leaf_ok p (VNum x).
Proof. intros Hp Hx. apply N.ltb_lt in Hx. destruct p; try contradiction; exact Hx. Qed.

Lemma read_fixed_inv p : numeric p -> forall n bs vals,
  wf_bytes bs -> length bs = (n * prim_size p)%nat -> read_fixed (prim_size p) n bs = Some vals ->
  bs = plain_enc p vals /\ length vals = n /\ Forall (leaf_ok p) vals.
Proof.
  intros Hp. induction n as [|n IH]; intros bs vals Hwf Hlen Hrd.
  - injection Hrd as <-. destruct bs as [|b bs]; [|discriminate Hlen].
    rewrite plain_enc_nonbool by (apply numeric_nonbool; exact Hp). split; [reflexivity|]. split; [reflexivity | constructor].
  - rewrite read_fixed_S in Hrd.
    destruct (take_le (prim_size p) bs) as [[x rest]|] eqn:Et; [|discriminate Hrd].
    destruct (read_fixed (prim_size p) n rest) as [vs|] eqn:Er; [|discriminate Hrd]. injection Hrd as <-.
    destruct (take_le_wf _ _ _ _ Hwf Et) as (-> & Hx & Hwr). rewrite app_length, le_enc_length in Hlen.
    destruct (IH rest vs Hwr (proj1 (Nat.add_cancel_l _ _ _) Hlen) Er) as (-> & <- & Hok).
    rewrite plain_enc_cons_numeric by exact Hp. split; [reflexivity|]. split; [reflexivity|].
    constructor; [|exact Hok]. apply leaf_ok_vnum; [exact Hp|]. rewrite pow_bits_size by exact Hp. exact Hx.
Qed.

Lemma strict_strings_inv : forall n bs vals,
  wf_bytes bs -> strict_strings n bs = Some vals ->
  bs = plain_enc PString vals /\ length vals = n /\ Forall (leaf_ok PString) vals /\
  Forall (fun v => nlen (str_of v) <= nlen bs) vals.
Proof.
  induction n as [|n IH]; intros bs vals Hwf Hs; cbn [strict_strings] in Hs.
  - destruct bs as [|b bs]; [|discriminate Hs]. injection Hs as <-.
    split; [reflexivity|]. split; [reflexivity|]. split; constructor.
  - destruct (take_le 4 bs) as [[x rest]|] eqn:Et; [|discriminate Hs].
    destruct (Nat.leb (N.to_nat x) (length rest)) eqn:Ele; [|discriminate Hs]. apply Nat.leb_le in Ele.
    destruct (strict_strings n (skipn (N.to_nat x) rest)) as [vs|] eqn:Er; [|discriminate Hs].
    injection Hs as <-.
    destruct (take_le_wf _ _ _ _ Hwf Et) as (-> & Hx & Hwr). rewrite pow256_4 in Hx.
    destruct (IH _ _ (wf_bytes_skipn _ _ Hwr) Er) as (Hbs & <- & Hok & Hle).
    set (s := firstn (N.to_nat x) rest) in *.
    assert (Hsl : nlen s = x) by (unfold nlen, s; rewrite firstn_length_le by exact Ele; apply N2Nat.id).
    assert (Hrl : nlen s <= nlen rest) by (unfold nlen, s; rewrite firstn_length; lia).
    split; [|split; [reflexivity|split]].
    + rewrite plain_enc_cons by discriminate. rewrite <- Hbs. cbn [plain_enc_val str_of].
      rewrite Hsl, (N.mod_small x (2 ^ 32)) by exact Hx. rewrite <- app_assoc. unfold s. rewrite firstn_skipn. reflexivity.
    + constructor; [|exact Hok]. apply wf_bytesb_spec, wf_bytes_firstn, Hwr.
    + rewrite nlen_app. constructor.
      * exact (N.le_trans _ _ _ Hrl (N.le_add_l _ _)).
      * eapply Forall_impl; [|exact Hle]. intros v Hv.
        exact (N.le_trans _ _ _ Hv (N.le_trans _ _ _ (nlen_skipn_le _ _) (N.le_add_l _ _))).
Qed.

Lemma bools_of_chunk_length : forall bs n, length (bools_of_chunk bs n) = Nat.min n (8 * length bs).
Proof.
  induction bs as [|b bs IH]; intros n; cbn [bools_of_chunk length]; [lia|].
  rewrite app_length, IH. unfold unpack_bools_byte. rewrite map_length, seq_length. lia.
Qed.

Lemma bools_of_chunk_ok : forall bs n, Forall (leaf_ok PBool) (bools_of_chunk bs n).
Proof.
  induction bs as [|b bs IH]; intros n; cbn [bools_of_chunk]; [constructor|].
  apply Forall_app. split; [|apply IH].
  unfold unpack_bools_byte. apply Forall_map. apply Forall_forall. intros i _.
  unfold leaf_ok. cbn [prim_ok prim_bits]. destruct (N.testbit b (N.of_nat i)); reflexivity.
Qed.

Lemma leaf_ok_nostr p v : p <> PString -> leaf_ok p v -> str_of v = [].
Proof.
  unfold leaf_ok. intros Hp Hv. destruct v as [x|s| |l|l]; try reflexivity.
  destruct p; try discriminate Hv. congruence.
Qed.

Theorem plain_dec_strict_inv p n bs vals :
  wf_bytes bs -> plain_dec_strict p n bs = Some vals ->
  bs = plain_enc p vals /\ length vals = n /\ Forall (leaf_ok p) vals /\
  Forall (fun v => nlen (str_of v) <= nlen bs) vals.
Proof.
  intros Hwf Hd.
  assert (Hstr : p <> PString -> Forall (leaf_ok p) vals -> Forall (fun v => nlen (str_of v) <= nlen bs) vals).
  { intros Hp. apply Forall_impl. intros v Hv. rewrite (leaf_ok_nostr p v Hp Hv). apply N.le_0_l. }
  destruct (prim_cases p) as [Hp|[->| ->]].
  - rewrite plain_dec_strict_numeric in Hd by exact Hp.
    destruct (Nat.eqb (length bs) (n * prim_size p)) eqn:El; [|discriminate Hd]. apply Nat.eqb_eq in El.
    destruct (read_fixed_inv p Hp n bs vals Hwf El Hd) as (H1 & H2 & H3).
    split; [exact H1|]. split; [exact H2|]. split; [exact H3|]. apply Hstr; [intros ->; exact Hp | exact H3].
  - apply strict_strings_inv; assumption.
  - unfold plain_dec_strict in Hd.
    destruct (Nat.eqb (length bs) ((n + 7) / 8)) eqn:El; [|discriminate Hd]. apply Nat.eqb_eq in El.
    destruct (list_eq_dec N.eq_dec (pack_bools (map num_of (bools_of_chunk bs n))) bs) as [Heq|_]; [|discriminate Hd].
    injection Hd as <-. split; [symmetry; exact Heq|]. split; [rewrite bools_of_chunk_length; lia|].
    split; [apply bools_of_chunk_ok | apply Hstr; [discriminate | apply bools_of_chunk_ok]].
Qed.

Lemma zip_entries_spec c : forall defs reps vals,
  length reps = length defs -> length vals = length (filter (fun d => d =? max_def c) defs) ->
  Forall (fun r => r <= max_rep c) reps -> Forall (fun d => d <= max_def c) defs ->
  map e_def (zip_entries reps defs (max_def c) vals) = defs /\
  map e_rep (zip_entries reps defs (max_def c) vals) = reps /\
  entry_vals (zip_entries reps defs (max_def c) vals) = vals /\
  lev_ok c (zip_entries reps defs (max_def c) vals).
Proof.
  unfold lev_ok, entry_vals. induction defs as [|d defs IH]; intros reps vals Hl Hv Hr Hd.
  - destruct reps; [|discriminate Hl]. destruct vals; [|discriminate Hv]. cbn [zip_entries]. auto.
  - destruct reps as [|r reps]; [discriminate Hl|]. injection Hl as Hl.
    inversion Hr as [|r' reps' Hr1 Hr2]; subst r' reps'. inversion Hd as [|d' defs' Hd1 Hd2]; subst d' defs'.
    cbn [zip_entries filter] in Hv |- *.
    destruct (d =? max_def c) eqn:Ed; [destruct vals as [|v vals]; [discriminate Hv|]; injection Hv as Hv|];
      destruct (IH reps vals Hl Hv Hr2 Hd2) as (H1 & H2 & H3 & H4);
      cbn [map flat_map e_def e_rep e_val app]; rewrite H1, H2, H3; repeat split;
      (constructor; [|exact H4]); unfold entry_levels_ok; cbn [e_rep e_def e_val]; clear - Ed Hr1 Hd1; lia.
Qed.

(** ** One level section: the validator's [take_levels] and the reader's [read_levels] *)

Lemma take_levels_inv w n maxlvl bs ls rest :
  take_levels w n maxlvl bs = inr (ls, rest) ->
  exists rs, hybrid_decode_framed w bs = Some (rs, rest) /\ ls = firstn n (runs_values rs) /\
             (n <= length (runs_values rs))%nat /\ (length (runs_values rs) < n + 8)%nat /\
             Forall (fun l => l <= maxlvl) ls.
Proof.
  unfold take_levels. intros H. destruct (hybrid_decode_framed w bs) as [[rs rest0]|]; [|discriminate H].
  destruct (Nat.ltb (length (runs_values rs)) n) eqn:E1; [discriminate H|]. apply Nat.ltb_ge in E1.
  destruct (Nat.leb 8 (length (runs_values rs) - n)) eqn:E2; [discriminate H|]. apply Nat.leb_gt in E2.
  destruct (forallb (fun l => l <=? maxlvl) (firstn n (runs_values rs))) eqn:E3; [|discriminate H].
  injection H as <- <-. exists rs. split; [reflexivity|]. split; [reflexivity|]. split; [exact E1|]. split; [lia|].
  rewrite forallb_forall in E3. apply Forall_forall. intros l Hin. specialize (E3 l Hin). lia.
Qed.

Lemma read_levels_conf w (n : nat) maxlvl data l nv ls rest :
  In w widths -> wf_bytes data -> nlen data < 2 ^ 31 -> (l <= length data)%nat ->
  (0 <= nv)%Z -> n = Z.to_nat nv -> (nv < 2 ^ 31)%Z ->
  take_levels w n maxlvl (skipn l data) = inr (ls, rest) ->
  exists k, read_levels w data l nv = Ok (ls, k) /\ skipn (l + k) data = rest /\ (l + k <= length data)%nat /\
            length ls = n /\ Forall (fun x => x <= maxlvl) ls.
Proof.
  intros Hw Hwf Hlen Hl Hnv0 Hn Hnv31 Ht.
  destruct (take_levels_inv _ _ _ _ _ _ Ht) as (rs & Hdec & Hls & Hge & Hlt & Hmax).
  assert (Hsmall : Forall run_small rs).
  { apply runs_small_of_length. unfold nlen. clear - Hlt Hn Hnv31.
    assert (2 ^ 31 + 8 < 2 ^ 63) by (vm_compute; reflexivity). lia. }
  destruct (rle_read_agrees_skip w (skipn l data) rs rest Hw (wf_bytes_skipn _ _ Hwf) Hdec) as (k & Hrd & Hsk & Hk & _).
  { unfold nlen in *. rewrite skipn_length. clear - Hlen. lia. }
  { exact Hsmall. }
  exists k. unfold read_levels.
  replace (Nat.ltb (length data) l) with false by (symmetry; apply Nat.ltb_ge; exact Hl).
  rewrite Hrd. replace (nv <? 0)%Z with false by (clear - Hnv0; lia). cbn [orb].
  replace (Nat.ltb (length (runs_values rs)) (Z.to_nat nv)) with false by (symmetry; apply Nat.ltb_ge; clear - Hge Hn; lia).
  rewrite <- Hn, <- Hls. split; [reflexivity|].
  rewrite skipn_length in Hk. split; [rewrite skipn_add; exact Hsk|]. split; [clear - Hk Hl; lia|].
  split; [|exact Hmax]. rewrite Hls. apply firstn_length_le. exact Hge.
Qed.

Definition spec_levels (maxlvl : N) (n : nat) (bs : bytes) : verr + (list N * bytes) :=
  if 0 <? maxlvl then take_levels (Reader.bit_width maxlvl) n maxlvl bs else inr (repeat 0 n, bs).

Lemma spec_levels_read maxlvl data l nv ls rest :
  maxlvl <= 15 -> wf_bytes data -> nlen data < 2 ^ 31 -> (l <= length data)%nat -> (0 <= nv < 2 ^ 31)%Z ->
  spec_levels maxlvl (Z.to_nat nv) (skipn l data) = inr (ls, rest) ->
  exists k, (if 0 <? maxlvl then read_levels (Reader.bit_width maxlvl) data l nv = Ok (ls, k) else k = 0%nat) /\
            skipn (l + k) data = rest /\ (l + k <= length data)%nat /\
            length ls = Z.to_nat nv /\ Forall (fun x => x <= maxlvl) ls.
Proof.
  unfold spec_levels. intros Hm Hwf Hlen Hl Hnv H. destruct (0 <? maxlvl) eqn:E.
  - apply (read_levels_conf _ (Z.to_nat nv) maxlvl); try assumption; try lia.
    apply bit_width_widths. lia.
  - injection H as <- <-. exists 0%nat. rewrite Nat.add_0_r. repeat split; [exact Hl | apply repeat_length |].
    apply Forall_forall. intros x Hx. apply repeat_spec in Hx. subst x. lia.
Qed.

Lemma filter_repeat0 n : filter (fun d => d =? 0) (repeat 0 n) = repeat 0 n.
Proof. induction n as [|n IH]; [reflexivity|]. cbn [repeat filter N.eqb]. rewrite IH. reflexivity. Qed.

Lemma i32_ok_lt z : i32_ok z = true -> (z < 2 ^ 31)%Z.
Proof. unfold i32_ok, in_range. change (2 ^ 31)%Z with 2147483648%Z. lia. Qed.

(** levels fit the bit widths 1..4 of the reader's level decoder *)
Definition cols_depth_ok (cols : list col) : Prop := Forall (fun c => max_def c <= 15 /\ max_rep c <= 15) cols.

Section WithCodec.

Variable decompress : Z -> bytes -> option bytes.

Definition codec_wf : Prop := forall c x y, wf_bytes x -> decompress c x = Some y -> wf_bytes y.

Hypothesis Hid : codec_id decompress.
Hypothesis Hwfd : codec_wf.

(** ** One page *)

Inductive page_checked (c : col) (codec : Z) (bs : bytes) (pv : page_view) (used : N) : Prop :=
| PageChecked ph rest dph payload reps p1 defs p2 vals :
    dec_page_header bs = Some (ph, rest) -> ph_data ph = Some dph ->
    supported_page ph (0 <? max_def c) (0 <? max_rep c) = Some dph ->
    (0 <= ph_compressed_size ph)%Z -> (0 <= ph_uncompressed_size ph)%Z -> (1 <= dph_num_values dph)%Z ->
    (Z.to_nat (ph_compressed_size ph) <= length rest)%nat ->
    decompress codec (firstn (Z.to_nat (ph_compressed_size ph)) rest) = Some payload ->
    length payload = Z.to_nat (ph_uncompressed_size ph) ->
    spec_levels (max_rep c) (Z.to_nat (dph_num_values dph)) payload = inr (reps, p1) ->
    spec_levels (max_def c) (Z.to_nat (dph_num_values dph)) p1 = inr (defs, p2) ->
    plain_dec_strict (c_prim c) (length (filter (fun d => d =? max_def c) defs)) p2 = Some vals ->
    pv_entries pv = zip_entries reps defs (max_def c) vals ->
    N.to_nat used = (length bs - length rest + Z.to_nat (ph_compressed_size ph))%nat ->
    page_checked c codec bs pv used.

Lemma check_page_inv c codec off bs pv used :
  check_page decompress c codec off bs = inr (pv, used) -> page_checked c codec bs pv used.
Proof.
  unfold check_page.
  apply (opt_inl_inr EPageHeader); intros [ph rest] Hdec.
  apply (if_inl_inr EPageType); intros Ety. apply (opt_inl_inr EPageType); intros dph Edata.
  apply (if_inl_inr EPageEncoding); intros Eenc.
  apply (if_inl_inr EPageEncoding); intros Edef. apply (if_inl_inr EPageEncoding); intros Erep.
  apply (if_inl_inr EPageSizes); intros Esz. apply (if_inl_inr EPageBody); intros Ebody. rewrite Z_N_nat.
  apply (opt_inl_inr EPageDecompress); intros payload Edc.
  apply (if_inl_inr EPageUncompressedSize); intros Hunc. apply (if_inl_inr EPageEmpty); intros En0.
  apply sum_inl_inr; intros [reps p1] Ereps. apply sum_inl_inr; intros [defs p2] Edefs.
  apply (if_inl_inr EPageFirstRep); intros _. apply (opt_inl_inr EPageValues); intros vals Epl H.
  injection H as <- <-. cbn [pv_entries].
  assert (Hsp : supported_page ph (0 <? max_def c) (0 <? max_rep c) = Some dph)
    by (unfold supported_page; rewrite Ety, Edata, Eenc, Edef, Erep; reflexivity).
  clear Ety Eenc Edef Erep. apply orb_false_elim in Esz as [Esz Hn0]. apply orb_false_elim in Esz as [Hc0 Hu0].
  apply Z.ltb_ge in Hc0, Hu0, Hn0. apply N.ltb_ge in Ebody. apply negb_false_iff, N.eqb_eq in Hunc.
  apply Nat.eqb_neq in En0. unfold nlen in Hunc.
  apply (PageChecked _ _ _ _ _ ph rest dph payload reps p1 defs p2 vals);
    [exact Hdec | exact Edata | exact Hsp | exact Hc0 | exact Hu0 | clear - Hn0 En0; lia | clear - Ebody; lia | exact Edc
    | apply Nat2N.inj; rewrite Hunc, Z_nat_N; reflexivity | | exact Edefs | exact Epl | reflexivity
    | rewrite N2Nat.inj_add, Nat2N.id, Z_N_nat; reflexivity].
  (* a failure of the repetition levels is reported under a name of its own *)
  unfold spec_levels. destruct (0 <? max_rep c); [|exact Ereps].
  change FileSpec.bit_width with Reader.bit_width in Ereps.
  destruct (take_levels _ _ _ payload) as [e|x]; [destruct e; discriminate Ereps | exact Ereps].
Qed.

(** the header decodes wherever it stands and its counts are int32s ([ConformantThrift]) *)
Theorem check_page_good c codec off bs pv used :
  codec_supported codec = true -> wf_bytes bs -> max_def c <= 15 -> max_rep c <= 15 ->
  check_page decompress c codec off bs = inr (pv, used) ->
  (N.to_nat used <= length bs)%nat /\
  page_good decompress codec c (firstn (N.to_nat used) bs, pv_entries pv).
Proof.
  intros Hsup Hwf Hd15 Hr15 Hchk. apply (proj1 (codec_okb_iff codec)) in Hsup.
  destruct (check_page_inv _ _ _ _ _ _ Hchk)
    as [ph rest dph payload reps p1 defs p2 vals Hdec Hdata Hsp Hc0 Hu0 Hn1 Hbody Hdc Hunc Hreps Hdefs Hpl Hes Hused].
  destruct (dec_page_header_i32 _ _ _ Hdec) as (Hui & _ & Hni). rewrite Hdata in Hni.
  apply i32_ok_lt in Hui. apply i32_ok_lt in Hni.
  destruct (dec_page_header_local _ _ _ Hdec) as (pre & -> & Hpre & Hloc). clear Hdec Hdata.
  rewrite app_length, Nat.add_sub in Hused.
  set (body := firstn (Z.to_nat (ph_compressed_size ph)) rest) in *.
  assert (Hbl : length body = Z.to_nat (ph_compressed_size ph)) by (apply firstn_length_le; exact Hbody).
  apply wf_bytes_app in Hwf. destruct Hwf as [_ Hwrest].
  assert (Hwpay : wf_bytes payload) by (apply (Hwfd codec body); [apply wf_bytes_firstn; exact Hwrest | exact Hdc]).
  assert (Hsmall : nlen payload < 2 ^ 31) by (clear - Hunc Hu0 Hui; unfold nlen; lia).
  (* the payload as the reader will read it: each level section is read by the
     reader as by the validator, and what follows is the PLAIN encoding of the
     values the strict decoder returned *)
  assert (Hnv : (0 <= dph_num_values dph < 2 ^ 31)%Z) by (clear - Hn1 Hni; lia).
  destruct (spec_levels_read _ payload 0 _ reps p1 Hr15 Hwpay Hsmall (Nat.le_0_l _) Hnv Hreps)
    as (l1 & Hl1 & Hs1 & Hf1 & Hrl & Hrmax).
  cbn [Nat.add] in Hs1, Hf1. rewrite <- Hs1 in Hdefs.
  destruct (spec_levels_read _ payload l1 _ defs p2 Hd15 Hwpay Hsmall Hf1 Hnv Hdefs)
    as (l2 & Hl2 & Hs2 & Hfit & Hdl & Hdmax).
  assert (Hwp2 : wf_bytes p2) by (rewrite <- Hs2; apply wf_bytes_skipn; exact Hwpay).
  destruct (plain_dec_strict_inv _ _ _ _ Hwp2 Hpl) as (Hp & Hvl & Hvok & Hvstr).
  destruct (zip_entries_spec c defs reps vals) as (Edefs & Ereps & Evals & Hlev);
    [congruence | exact Hvl | exact Hrmax | exact Hdmax |].
  rewrite <- Hes in Edefs, Ereps, Evals, Hlev. rewrite <- Hs2 in Hp, Hvstr.
  rewrite <- Ereps in Hl1. rewrite <- Edefs in Hl2, Hvl, Hdl. rewrite <- Evals in Hp, Hvl, Hvok, Hvstr.
  rewrite map_length in Hdl. symmetry in Hvl.
  clear Hreps Hdefs Hpl Hes Hwpay Hwp2 Hwrest Hrl Hrmax Hdmax Edefs Ereps Evals Hs1 Hs2 Hf1.
  rewrite Hused, firstn_app_2. fold body.
  split; [rewrite app_length; apply Nat.add_le_mono_l; exact Hbody|].
  unfold page_good. cbn [fst snd].
  split. { intros E. rewrite E in Hdl. clear - Hdl Hn1. cbn [length] in Hdl. lia. }
  split; [rewrite app_length; apply (Nat.le_trans _ _ _ Hpre), Nat.le_add_r|].
  split; [exact Hlev|]. split; [exact Hvok|]. split.
  { eapply Forall_impl; [|exact Hvstr]. intros v Hv.
    exact (N.le_lt_trans _ _ _ Hv (N.le_lt_trans _ _ _ (nlen_skipn_le _ _) Hsmall)). }
  destruct (col_required c) eqn:Hreq.
  - (* both maximum levels are 0: no level section, the payload is the values *)
    destruct (col_required_true c Hreq) as [Hd0 Hr0]. rewrite Hr0 in Hl1, Hsp. rewrite Hd0 in Hl2, Hsp.
    change (l1 = 0%nat) in Hl1. change (l2 = 0%nat) in Hl2. subst l1 l2. cbn [Nat.add skipn] in Hp. rewrite Hp in Hdc, Hunc.
    apply (req_step_intro decompress codec c ph dph); try assumption.
    rewrite Hdl, Z2Nat.id; [reflexivity | exact (Z.le_trans _ _ _ Z.le_0_1 Hn1)].
  - replace (0 <? max_def c) with true in Hl2, Hsp
      by (symmetry; apply N.ltb_lt, col_required_false_max_def; exact Hreq).
    apply (opt_step_intro decompress codec c ph dph pre body payload l1 l2); assumption.
Qed.

Lemma check_pages_good c codec : forall fuel off remaining bs pvs,
  codec_supported codec = true -> wf_bytes bs -> max_def c <= 15 -> max_rep c <= 15 ->
  check_pages decompress fuel c codec off remaining bs = inr pvs ->
  exists pgs, Forall (page_good decompress codec c) pgs /\ map snd pgs = map pv_entries pvs /\
              pbytes pgs = firstn (N.to_nat remaining) bs /\ (N.to_nat remaining <= length bs)%nat.
Proof.
  induction fuel as [|fuel IH]; intros off remaining bs pvs Hsup Hwf Hd15 Hr15; [discriminate|].
  cbn [check_pages]. destruct (remaining =? 0) eqn:E0.
  - apply N.eqb_eq in E0. subst remaining. intros H. injection H as <-. exists []. cbn [N.to_nat firstn map].
    split; [constructor|]. split; [reflexivity|]. split; [reflexivity | apply Nat.le_0_l].
  - apply sum_inl_inr; intros [pv used] Ep. apply (if_inl_inr EChunkCompressedSize); intros Eu. apply N.ltb_ge in Eu.
    apply sum_inl_inr; intros pvs' Er H. injection H as <-.
    destruct (check_page_good c codec off bs pv used Hsup Hwf Hd15 Hr15 Ep) as [Hfit Hgood].
    destruct (IH _ _ _ _ Hsup (wf_bytes_skipn _ _ Hwf) Hd15 Hr15 Er) as (pgs & Hg & Hes & Hb & Hl).
    rewrite skipn_length in Hl.
    exists ((firstn (N.to_nat used) bs, pv_entries pv) :: pgs).
    split; [constructor; assumption|]. split; [cbn [map snd]; rewrite Hes; reflexivity|].
    assert (Hrem : N.to_nat remaining = (N.to_nat used + N.to_nat (remaining - used))%nat) by (clear - Eu; lia).
    split; [|clear - Hrem Hl Hfit; lia].
    rewrite pbytes_cons. cbn [fst]. rewrite Hb, Hrem.
    symmetry. apply firstn_add.
Qed.

Section File.

Variable file : bytes.
Hypothesis Hwf : wf_bytes file.

(** ** Chunks and row groups, located by the validator's offsets *)

Lemma check_chunk_reads limit c pos cc cv pos' :
  max_def c <= 15 -> max_rep c <= 15 ->
  check_chunk decompress file limit c pos cc = inr (cv, pos') ->
  exists cm, cc_meta cc = Some cm /\ cm_path cm = c_path c /\ pos <= pos' /\
             chunk_reads decompress c cm (slice pos (pos' - pos) file) (chunk_entries cv).
Proof.
  intros Hd15 Hr15. unfold check_chunk.
  apply (opt_inl_inr EChunkNoMeta); intros cm Hmeta. apply (if_inl_inr EChunkPath); intros Epath.
  apply (if_inl_inr EChunkType); intros _.
  apply (if_inl_inr EChunkCodec); intros Esup. apply negb_false_iff in Esup.
  apply (if_inl_inr EChunkOffset); intros _. apply (if_inl_inr EChunkCompressedSize); intros Esz.
  set (total := Z.to_N (cm_total_compressed cm)).
  apply (if_inl_inr EChunkCompressedSize); intros _. apply (if_inl_inr EChunkFileOffset); intros _.
  apply sum_inl_inr; intros pvs Ep. apply (if_inl_inr EChunkNumValues); intros Hnv.
  apply (if_inl_inr EChunkUncompressedSize); intros _ H.
  injection H as <- <-.
  exists cm. split; [exact Hmeta|]. split.
  { unfold path_eq in Epath. destruct (list_eq_dec (list_eq_dec N.eq_dec) (cm_path cm) (c_path c)); [assumption|discriminate]. }
  split; [apply N.le_add_r|]. rewrite N.add_comm, N.add_sub.
  destruct (check_pages_good c (cm_codec cm) _ _ _ _ _ Esup (wf_bytes_skipn _ _ Hwf) Hd15 Hr15 Ep)
    as (pgs & Hgood & Hes & Hb & Hl).
  unfold chunk_entries. cbn [cv_pages].
  assert (Hge : pentries pgs = flat_map pv_entries pvs).
  { unfold pentries. rewrite Hes. symmetry. apply flat_map_concat_map. }
  unfold slice. rewrite <- Hb, <- Hge.
  apply (read_chunk_good decompress (cm_codec cm) c pgs cm Hgood eq_refl).
  - rewrite Hge, flat_map_concat_map.
    rewrite <- (map_map pv_entries (@nlen entry)), sumN_nlen_concat in Hnv. unfold nlen in Hnv. clear - Hnv Esz. lia.
  - rewrite Hb, firstn_length_le by exact Hl. unfold total. clear - Esz. lia.
Qed.

Variable fs : list field.
Hypothesis Hnd : NoDup (map c_path (columns fs)).
Hypothesis Hdepth : cols_depth_ok (columns fs).

Lemma check_chunks_reads limit : forall cols k pos ccs cvs pos',
  skipn k (columns fs) = cols ->
  check_chunks decompress file limit cols pos ccs = inr (cvs, pos') ->
  exists xs, Forall2 (cc_reads decompress (columns fs)) xs ccs /\
             cbytes xs = slice pos (pos' - pos) file /\ pos <= pos' /\
             map ci_idx xs = seq k (length xs) /\ map ci_es xs = map chunk_entries cvs /\
             length xs = length cols.
Proof.
  induction cols as [|c cols IH]; intros k pos ccs cvs pos' Hk.
  - destruct ccs as [|cc ccs]; [|discriminate]. cbn [check_chunks]. intros H. injection H as <- <-.
    exists []. rewrite N.sub_diag. repeat split; [constructor | apply N.le_refl].
  - destruct ccs as [|cc ccs]; [discriminate|]. cbn [check_chunks].
    apply sum_inl_inr; intros [cv p1] Ec. apply sum_inl_inr; intros [cvs' p2] Er H.
    injection H as <- <-.
    destruct (skipn_cons_nth _ _ _ _ Hk) as [Hnth Hk'].
    pose proof (proj1 (Forall_forall _ _) Hdepth c (nth_error_In _ _ Hnth)) as Hd. cbv beta in Hd.
    destruct (check_chunk_reads limit c pos cc cv p1 (proj1 Hd) (proj2 Hd) Ec) as (cm & Hmeta & Hpath & Hle1 & Hrd).
    destruct (IH (S k) p1 ccs cvs' p2 Hk' Er) as (xs & Hrel & Hb & Hle2 & Hidx & Hes & Hlen).
    exists ({| ci_idx := k; ci_col := c; ci_bytes := slice pos (p1 - pos) file; ci_es := chunk_entries cv |} :: xs).
    split.
    { constructor; [|exact Hrel]. exists cm. split; [exact Hmeta|]. cbn [ci_idx ci_col ci_bytes ci_es].
      split; [|exact Hrd]. rewrite Hpath. apply (find_col_nth (columns fs) k c 0 Hnd Hnth). }
    split; [unfold cbytes in *; cbn [map concat ci_bytes]; rewrite Hb; apply slice_split; assumption|].
    split; [exact (N.le_trans _ _ _ Hle1 Hle2)|]. split; [cbn [map ci_idx length seq]; rewrite Hidx; reflexivity|].
    split; [cbn [map ci_es]; rewrite Hes; reflexivity | cbn [length]; rewrite Hlen; reflexivity].
Qed.

Lemma check_row_group_reads limit pos rg rv pos' :
  check_row_group decompress file limit fs (columns fs) pos rg = inr (rv, pos') ->
  rg_reads decompress fs rg (slice pos (pos' - pos) file) (rv_records rv) /\
  rg_num_rows rg = Z.of_N (rv_rows rv) /\ nlen (rv_records rv) = rv_rows rv /\ pos <= pos' /\
  row_group_checks fs rg.
Proof.
  unfold check_row_group.
  apply sum_inl_inr; intros [cvs p1] Ec. apply (if_inl_inr ERowGroupRows); intros Erows.
  apply (if_inl_inr ERowGroupRows); intros _. apply (if_inl_inr ERowGroupByteSize); intros _.
  apply (opt_inl_inr EAssemble); intros recs Eas. apply (if_inl_inr EAssemble); intros Hn H. injection H as <- <-.
  apply negb_false_iff, N.eqb_eq in Hn. cbn [rv_records rv_rows].
  destruct (check_chunks_reads limit (columns fs) 0 pos (rg_columns rg) cvs p1 eq_refl Ec)
    as (xs & Hrel & Hb & Hle & Hidx & Hes & Hlen).
  split; [|split; [lia|split; [exact Hn|split; [exact Hle|exact (cc_reads_checks decompress _ _ _ Hrel)]]]].
  rewrite <- Hb. apply read_row_group_good; [exact Hrel | rewrite <- Hlen; exact Hidx | rewrite Hes; exact Eas].
Qed.

Lemma check_row_groups_items limit : forall rgs pos rvs pos',
  check_row_groups decompress file limit fs (columns fs) pos rgs = inr (rvs, pos') ->
  exists items,
    map ri_rg items = rgs /\ map ri_recs items = map rv_records rvs /\
    rbytes items = slice pos (pos' - pos) file /\ pos <= pos' /\
    Forall (ritem_ok decompress fs) items /\ Forall (row_group_checks fs) rgs /\
    N.of_nat (length (rrecs items)) = sumN (map rv_rows rvs).
Proof.
  induction rgs as [|rg rgs IH]; intros pos rvs pos'.
  - cbn [check_row_groups]. intros H. injection H as <- <-. exists []. rewrite N.sub_diag.
    repeat split; [apply N.le_refl | constructor | constructor].
  - cbn [check_row_groups].
    apply sum_inl_inr; intros [rv p1] Eg. apply sum_inl_inr; intros [rvs' p2] Er H.
    injection H as <- <-.
    destruct (check_row_group_reads limit pos rg rv p1 Eg) as (Hrd & Hrows & Hn & Hle1 & Hchk).
    destruct (IH p1 rvs' p2 Er) as (items & Hrgs & Hrecs & Hb & Hle2 & Hok & Hchks & Hsum).
    exists ({| ri_recs := rv_records rv; ri_rg := rg; ri_bytes := slice pos (p1 - pos) file |} :: items).
    split; [cbn [map ri_rg]; rewrite Hrgs; reflexivity|].
    split; [cbn [map ri_recs]; rewrite Hrecs; reflexivity|].
    split; [rewrite rbytes_cons; cbn [ri_bytes]; rewrite Hb; apply slice_split; assumption|].
    split; [exact (N.le_trans _ _ _ Hle1 Hle2)|]. unfold nlen in Hn. split.
    { constructor; [|exact Hok]. unfold ritem_ok. cbn [ri_recs ri_rg ri_bytes]. split; [clear - Hrows Hn; lia | exact Hrd]. }
    split; [constructor; assumption|].
    rewrite rrecs_cons, app_length. cbn [ri_recs map sumN]. clear - Hn Hsum. lia.
Qed.

End File.

(** where the validator finds the footer: the four bytes before the closing
    magic give its length *)
Definition footer_len (file : bytes) : N := le_dec (slice (nlen file - 8) 4 file).
Definition footer_start (file : bytes) : N := nlen file - 8 - footer_len file.

Lemma open_footer_conf fs fm file s0 :
  12 <= nlen file -> footer_len file + 12 <= nlen file ->
  dec_file_meta (slice (footer_start file) (footer_len file) file) = Some (fm, []) ->
  footer_checks fs fm -> s_fail s0 = None -> s_file s0 = file ->
  exists s1, open_footer fs s0 = Ok (fm, s1) /\ s_fail s1 = None /\ s_file s1 = file /\ s_pos s1 = 4.
Proof.
  intros Hn12 Hflen Hdec Hchk Hfail Hfile.
  destruct (dec_file_meta_local _ _ _ Hdec) as (ft & Hft & _ & Hloc). rewrite app_nil_r in Hft.
  set (lenb := slice (nlen file - 8) 4 file).
  assert (Hparts : skipn (N.to_nat (footer_start file)) file = ft ++ lenb ++ skipn (N.to_nat (nlen file - 8 + 4)) file).
  { rewrite (skipn_slice _ (footer_len file)), Hft.
    replace (footer_start file + footer_len file) with (nlen file - 8) by (unfold footer_start; lia).
    rewrite (skipn_slice (nlen file - 8) 4). reflexivity. }
  destruct (read_metadata_parts fm (firstn (N.to_nat (footer_start file)) file) ft lenb
              (skipn (N.to_nat (nlen file - 8 + 4)) file) s0 Hloc) as (s4 & H4 & Hn4 & Hf4 & _).
  - unfold lenb, slice. rewrite firstn_length, skipn_length. unfold nlen in Hn12 |- *. clear - Hn12. lia.
  - rewrite skipn_length. unfold nlen in Hn12 |- *. clear - Hn12. lia.
  - change (le_dec lenb) with (footer_len file). rewrite <- Hft. unfold slice, nlen.
    rewrite firstn_length, skipn_length. unfold footer_start, nlen in *. clear - Hn12 Hflen. lia.
  - exact Hfail.
  - rewrite Hfile, <- Hparts. symmetry. apply firstn_skipn.
  - destruct (open_footer_after fs fm s0 s4 H4 Hn4 Hchk) as (s5 & H5 & Hn5 & Hf5 & Hp5).
    exists s5. rewrite Hf5, Hf4. auto.
Qed.

Lemma check_file_inv file v :
  check_file decompress file = inr v ->
  12 <= nlen file /\ footer_len file + 12 <= nlen file /\
  dec_file_meta (slice (footer_start file) (footer_len file) file) = Some (fv_meta v, []) /\
  check_row_groups decompress file (footer_start file) (fv_fields v) (columns (fv_fields v)) 4
    (fm_row_groups (fv_meta v)) = inr (fv_rgs v, footer_start file) /\
  fm_num_rows (fv_meta v) = Z.of_N (sumN (map rv_rows (fv_rgs v))).
Proof.
  unfold check_file. cbv zeta. fold (footer_len file). fold (footer_start file).
  apply (if_inl_inr ETooShort); intros E12.
  apply (if_inl_inr EHeadMagic); intros _. apply (if_inl_inr ETailMagic); intros _.
  apply (if_inl_inr EFooterLen); intros Efl. apply (opt_inl_inr EFooterDecode); intros [fm tl] Edec.
  destruct tl as [|t tl]; [|discriminate].
  apply sum_inl_inr; intros fs _. apply sum_inl_inr; intros [rvs pos] Erg.
  apply (if_inl_inr EGapBeforeFooter); intros Hpos. apply (if_inl_inr EFileRows); intros Hrows H. injection H as <-.
  apply negb_false_iff, N.eqb_eq in Hpos. apply negb_false_iff, Z.eqb_eq in Hrows. subst pos.
  cbn [fv_meta fv_fields fv_rgs]. split; [lia|]. split; [lia|]. split; [exact Edec|]. split; [exact Erg | exact Hrows].
Qed.

(** The reader model decodes every conformant file of the supported subset.
    Hypotheses beyond [check_file ... = inr v]:
    - the reader's struct shape is the file's schema ([fv_fields v = fs]);
    - column paths are distinct and levels fit 4 bits (the library's level
      decoder is translated for widths 1..4);
    - (nothing about the row counts: a row group may have zero rows, first,
      last or several in a row; the loop of Next reads and skips it, it
      contributes no record to [view_records v] and 0 to the sum);
    - the file and whatever [decompress] returns consist of bytes, and the
      identity codec is the identity. *)
Theorem conformant_read_ok_gen fs file v :
  wf_bytes file -> check_file decompress file = inr v -> fv_fields v = fs ->
  NoDup (map c_path (columns fs)) -> cols_depth_ok (columns fs) ->
  read_all decompress fs file =
  {| o_open_ok := true; o_rows := Z.of_N (sumN (map rv_rows (fv_rgs v)));
     o_nexts := sumN (map rv_rows (fv_rgs v)); o_err := false; o_panic := false;
     o_recs := view_records v |}.
Proof.
  intros Hwf Hchk Hfs Hnd Hdepth.
  destruct (check_file_inv file v Hchk) as (Hn12 & Hflen & Hdec & Hrgs & Hrows). rewrite Hfs in Hrgs.
  destruct (check_row_groups_items file Hwf fs Hnd Hdepth _ _ _ _ _ Hrgs)
    as (items & Hmap & Hrecs & Hb & Hle & Hok & Hchks & Hsum).
  destruct (open_footer_conf fs (fv_meta v) file (mk_src file [] None) Hn12 Hflen Hdec (footer_checks_of fs _ Hchks)
              eq_refl eq_refl) as (s1 & Hopen & Hfail1 & Hfile1 & Hpos1).
  assert (Hrr : rrecs items = view_records v).
  { unfold rrecs, view_records. rewrite Hrecs. symmetry. apply flat_map_concat_map. }
  rewrite <- Hsum, <- Hrr, nat_N_Z.
  apply (read_all_opened decompress fs (fv_meta v) items _ s1 (skipn (N.to_nat (4 + (footer_start file - 4))) file) Hopen Hfail1).
  - unfold rem. rewrite Hfile1, Hpos1, (skipn_slice 4 (footer_start file - 4)), Hb. reflexivity.
  - symmetry. exact Hmap.
  - rewrite Hrows. lia.
  - exact Hok.
Qed.

End WithCodec.

(** C04, strong form, with the shape conditions of [ForeignProofs.fshape_ok] *)
Theorem conformant_read_ok decompress fs file v :
  check_file decompress file = inr v ->
  fv_fields v = fs ->
  fshape_ok fs ->
  (forall x, decompress CODEC_UNCOMPRESSED x = Some x) ->
  (forall c x y, wf_bytes x -> decompress c x = Some y -> wf_bytes y) ->
  wf_bytes file ->
  read_all decompress fs file =
  {| o_open_ok := true; o_rows := Z.of_N (sumN (map rv_rows (fv_rgs v)));
     o_nexts := sumN (map rv_rows (fv_rgs v)); o_err := false; o_panic := false;
     o_recs := view_records v |}.
Proof.
  intros Hchk Hfs (_ & Hnd & Hdepth) Hid Hwfd Hwf.
  exact (conformant_read_ok_gen decompress Hid Hwfd fs file v Hwf Hchk Hfs Hnd Hdepth).
Qed.

Print Assumptions check_page_good.
Print Assumptions conformant_read_ok_gen.
Print Assumptions conformant_read_ok.

(** ** The hypotheses are satisfiable, also by files with empty row groups *)
From PQ Require Import Writer Foreign.

Module ConformantExample.
Import Example ForeignExample.

Definition expected (v : file_view) : outcome :=
  {| o_open_ok := true; o_rows := Z.of_N (sumN (map rv_rows (fv_rgs v)));
     o_nexts := sumN (map rv_rows (fv_rgs v)); o_err := false; o_panic := false; o_recs := view_records v |}.

Lemma did_id : forall x, did CODEC_UNCOMPRESSED x = Some x.
Proof. reflexivity. Qed.

Lemma did_wf : forall c x y, wf_bytes x -> did c x = Some y -> wf_bytes y.
Proof. intros c x y Hx H. injection H as <-. exact Hx. Qed.

Definition conformant_view (fs : list field) (file : bytes) : option file_view :=
  match check_file did file with
  | inr v => if wf_bytesb file && fshape_okb fs then Some v else None
  | inl _ => None
  end.

(** [f] is whatever else is to be known of the validator's view: in each
    example below the validator thus runs once, and only [f]'s small result is
    compared, not the view *)
Lemma instance_of {A} (f : file_view -> A) fs file a :
  option_map (fun v => (fv_fields v, f v)) (conformant_view fs file) = Some (fs, a) ->
  exists v, check_file did file = inr v /\ f v = a /\ read_all did fs file = expected v.
Proof.
  unfold conformant_view. intros H. destruct (check_file did file) as [e|v] eqn:Hchk; [discriminate H|].
  destruct (wf_bytesb file && fshape_okb fs) eqn:Hok; [|discriminate H]. injection H as Hfs Hf.
  apply andb_prop in Hok. destruct Hok as [Hwf Hshape]. exists v. split; [reflexivity|]. split; [exact Hf|].
  exact (conformant_read_ok did fs file v Hchk Hfs (fshape_okb_sound fs Hshape) did_id did_wf
           (proj1 (wf_bytesb_spec file) Hwf)).
Qed.

Example foreign_instance :
  exists v, check_file did (foreign_file cid fs0 fc0 bs1) = inr v /\
            read_all did fs0 (foreign_file cid fs0 fc0 bs1) = expected v.
Proof.
  destruct (instance_of (fun _ => tt) fs0 (foreign_file cid fs0 fc0 bs1) tt) as (v & Hchk & _ & Hread);
    [vm_compute; reflexivity|].
  exists v. split; assumption.
Qed.

Example written_instance :
  exists v, check_file did (file_of_batches cid cfg0 bs0) = inr v /\
            read_all did fs0 (file_of_batches cid cfg0 bs0) = expected v.
Proof.
  destruct (instance_of (fun _ => tt) fs0 (file_of_batches cid cfg0 bs0) tt) as (v & Hchk & _ & Hread);
    [vm_compute; reflexivity|].
  exists v. split; assumption.
Qed.

(** empty row groups (in the middle; first, twice in a row and last): the loop
    of Next skips them *)
Example empty_row_groups_instance :
  let file := file_of_batches cid cfg0 [[r1]; []; [r2]] in
  exists v, check_file did file = inr v /\ fv_fields v = fs0 /\ map rv_rows (fv_rgs v) = [1; 0; 1] /\
            view_records v = [r1; r2] /\ read_all did fs0 file = expected v.
Proof.
  cbv zeta.
  destruct (instance_of (fun v => (fv_fields v, map rv_rows (fv_rgs v), view_records v)) fs0
              (file_of_batches cid cfg0 [[r1]; []; [r2]]) (fs0, [1; 0; 1], [r1; r2])) as (v & Hchk & Hv & Hread);
    [vm_compute; reflexivity|].
  injection Hv as Hfs Hrows Hrecs. exists v. auto.
Qed.

Example empty_row_groups_read :
  let file := file_of_batches cid cfg0 [[r1]; []; [r2]] in
  read_all did fs0 file =
  {| o_open_ok := true; o_rows := 2; o_nexts := 2; o_err := false; o_panic := false; o_recs := [r1; r2] |}.
Proof. vm_compute. reflexivity. Qed.

Example empty_row_groups_everywhere :
  let file := file_of_batches cid cfg0 [[]; [r1]; []; []; [r2]; []] in
  exists v, check_file did file = inr v /\ map rv_rows (fv_rgs v) = [0; 1; 0; 0; 1; 0] /\
            read_all did fs0 file = expected v /\ o_recs (read_all did fs0 file) = [r1; r2].
Proof.
  cbv zeta.
  destruct (instance_of (fun v => (map rv_rows (fv_rgs v), view_records v)) fs0
              (file_of_batches cid cfg0 [[]; [r1]; []; []; [r2]; []]) ([0; 1; 0; 0; 1; 0], [r1; r2]))
    as (v & Hchk & Hv & Hread); [vm_compute; reflexivity|].
  injection Hv as Hrows Hrecs. exists v. rewrite Hread.
  split; [exact Hchk|]. split; [exact Hrows|]. split; [reflexivity | exact Hrecs].
Qed.

End ConformantExample.

Print Assumptions ConformantExample.foreign_instance.
Print Assumptions ConformantExample.empty_row_groups_instance.
Print Assumptions ConformantExample.empty_row_groups_everywhere.
