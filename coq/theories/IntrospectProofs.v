(** * IntrospectProofs: the introspection calls of parquet.go (ReadMetaData,
    PageHeadersAtOffset, PageHeaders; model in [Introspect.v]) run on the file
    the writer model produces report exactly what is in that file
    (property C16).  PageHeadersAtOffset depends on no byte past the chunk it
    is pointed at ([page_headers_at_offset_local]).  Introspection never
    decompresses: the only parameter is [compress]. *)
From Coq Require Import List NArith ZArith Lia Bool Arith PeanoNat.
From Coq Require Import ZifyN ZifyNat ZifyBool.
From PQ Require Import Bytes Schema Dremel DremelProofs Rle Plain PlainProofs Stats StatsProofs
     MetaTypes Thrift Meta MetaProofs Writer WriterProofs PageProofs Io IoProofs Reader ReaderProofs ReaderLayers ReaderProofs2 Introspect.
Import ListNotations.
Local Open Scope N_scope.

Lemma chunk_length_le {A} n (l : list A) : (length (chunk n l) <= length l)%nat.
Proof. unfold chunk. apply chunk_fuel_length. Qed.

Lemma chunk_not_nil {A} n (l : list A) : l <> [] -> chunk n l <> [].
Proof. intros Hl. destruct l as [|x l]; [congruence|]. unfold chunk. cbn [length chunk_fuel]. discriminate. Qed.

Lemma m_seek_cur_ok off s :
  s_fail s = None -> (0 <= off)%Z ->
  exists s', m_seek_cur off s = Ok (tt, s') /\ adv s (Z.to_nat off) s'.
Proof.
  intros Hfail Hoff. unfold m_seek_cur, get_pos, bind. cbv beta iota.
  destruct (m_seek_start_ok (Z.of_N (s_pos s) + off) s Hfail) as (s' & Hs & Hf & Hn & Hp); [lia|].
  exists s'. split; [exact Hs|]. unfold adv. rewrite Hf, Hp. repeat split; auto. lia.
Qed.

Section WithCodec.

Variable compress : Z -> bytes -> bytes.

Definition hdr_of (codec : Z) (c : col) (es : list entry) : page_header :=
  pg_header (make_page compress codec c es).

Lemma headers_loop_step codec c es s rest f n ro nread acc :
  page_pre compress codec c es -> s_fail s = None ->
  rem s = page_bytes (make_page compress codec c es) ++ rest ->
  (nread < n)%Z ->
  exists s',
    headers_loop (S f) n ro nread acc s =
    headers_loop f n true (nread + Z.of_nat (length es)) (acc ++ [hdr_of codec c es]) s' /\
    adv s (length (page_bytes (make_page compress codec c es))) s'.
Proof.
  intros Hpre Hfail Hrem Hlt. unfold page_bytes in Hrem. rewrite <- app_assoc in Hrem.
  cbn [headers_loop]. replace (nread <? n)%Z with true by lia. rewrite orb_true_r.
  destruct (read_page_header compress codec c es Hpre s _ Hfail Hrem) as (s1 & Hh & Hadv1).
  rewrite (bind_ok Hh). cbv beta.
  destruct (make_page_sizes compress codec c es Hpre) as [Hcs _].
  destruct (m_seek_cur_ok (ph_compressed_size (pg_header (make_page compress codec c es))) s1
              (adv_fail Hadv1)) as (s2 & Hsk & Hadv2); [lia|].
  rewrite (bind_ok Hsk). cbv beta.
  rewrite Hcs, Nat2Z.id in Hadv2.
  change (ph_data (pg_header (make_page compress codec c es))) with (Some (page_dph codec c es)).
  cbv iota.
  rewrite (page_num_values compress codec c es Hpre). exists s2. split; [reflexivity|].
  rewrite page_bytes_length. exact (adv_trans Hadv1 Hadv2).
Qed.

(** the loop over the pages of one chunk: it stops after the last page because
    every page holds at least one entry and the entries sum to [n] *)
Lemma headers_loop_ok codec c : forall ess s rest f n ro nread acc,
  Forall (page_pre compress codec c) ess -> s_fail s = None ->
  rem s = ReaderProofs.chunk_bytes compress codec c ess ++ rest ->
  n = (nread + Z.of_nat (length (concat ess)))%Z ->
  (ess = [] -> ro = true) ->
  (length ess <= f)%nat ->
  exists s',
    headers_loop f n ro nread acc s = Ok (acc ++ map (hdr_of codec c) ess, s') /\
    adv s (length (ReaderProofs.chunk_bytes compress codec c ess)) s'.
Proof.
  induction ess as [|es ess IH]; intros s rest f n ro nread acc Hpre Hfail Hrem Hn Hro Hfuel.
  - exists s. cbn [concat map length] in *. rewrite app_nil_r. split; [|apply adv_refl; exact Hfail].
    rewrite (Hro eq_refl).
    destruct f; cbn [headers_loop negb orb]; replace (nread <? n)%Z with false by lia; reflexivity.
  - inversion Hpre as [|es' ess' Hes Hess]; subst es' ess'.
    destruct f as [|f]; [cbn [length] in Hfuel; lia|].
    rewrite ReaderProofs.chunk_bytes_cons, <- app_assoc in Hrem.
    assert (Hpos : (1 <= length es)%nat).
    { pose proof (pp_nonempty _ _ _ _ Hes) as Hne. destruct es; [congruence | cbn [length]; lia]. }
    cbn [concat] in Hn. rewrite app_length in Hn.
    destruct (headers_loop_step codec c es s _ f n ro nread acc Hes Hfail Hrem) as (s1 & Hstep & Hadv1); [lia|].
    rewrite Hstep.
    destruct (IH s1 rest f n true (nread + Z.of_nat (length es))%Z (acc ++ [hdr_of codec c es]))
      as (s2 & Hrun & Hadv2).
    + exact Hess.
    + exact (adv_fail Hadv1).
    + exact (rem_adv_app Hrem Hadv1).
    + lia.
    + reflexivity.
    + cbn [length] in Hfuel. lia.
    + exists s2. rewrite Hrun. cbn [map]. rewrite <- app_assoc. split; [reflexivity|].
      rewrite ReaderProofs.chunk_bytes_cons, app_length. exact (adv_trans Hadv1 Hadv2).
Qed.

Lemma headers_at_chunk codec c ess pre post fuel s0 :
  Forall (page_pre compress codec c) ess -> ess <> [] ->
  s_fail s0 = None ->
  s_file s0 = pre ++ ReaderProofs.chunk_bytes compress codec c ess ++ post ->
  (length ess <= fuel)%nat ->
  exists s',
    page_headers_at_offset fuel (Z.of_N (nlen pre)) (Z.of_N (nlen (concat ess))) s0 =
      Ok (map (hdr_of codec c) ess, s') /\
    s_fail s' = None /\ s_file s' = s_file s0 /\
    s_pos s' = nlen pre + nlen (ReaderProofs.chunk_bytes compress codec c ess).
Proof.
  intros Hpre Hne Hfail Hfile Hfuel. unfold page_headers_at_offset.
  destruct (m_seek_start_ok (Z.of_N (nlen pre)) s0 Hfail) as (s1 & Hsk & Hf1 & Hn1 & Hp1); [lia|].
  rewrite (bind_ok Hsk).
  assert (Hrem1 : rem s1 = ReaderProofs.chunk_bytes compress codec c ess ++ post).
  { apply (rem_at s1 pre); [rewrite Hf1; exact Hfile | rewrite Hp1; lia]. }
  destruct (headers_loop_ok codec c ess s1 post fuel (Z.of_N (nlen (concat ess)))
              (0 <? Z.of_N (nlen (concat ess)))%Z 0%Z [] Hpre Hn1 Hrem1) as (s2 & Hrun & Hadv).
  - unfold nlen. lia.
  - intros E. congruence.
  - exact Hfuel.
  - exists s2. rewrite Hrun. cbn [app]. split; [reflexivity|].
    destruct Hadv as (Hf2 & Hn2 & Hp2). split; [exact Hn2|]. split; [rewrite Hf2; exact Hf1|].
    rewrite Hp2, Hp1. unfold nlen. lia.
Qed.

Definition written_footer (cfg : config) (bs : list (list value)) : file_meta :=
  footer_meta cfg (map (fun b => snd (write_batch compress cfg b)) bs).

Lemma written_footer_eq cfg bs : written_footer cfg bs = footer compress cfg bs.
Proof. unfold written_footer, footer, batch_rgs. rewrite map_map. reflexivity. Qed.

Lemma read_metadata_at cfg bs s0 :
  footer_ok compress cfg bs ->
  s_fail s0 = None -> s_file s0 = file_of_batches compress cfg bs ->
  exists s', read_metadata s0 = Ok (written_footer cfg bs, s') /\
             s_fail s' = None /\ s_file s' = s_file s0 /\
             s_pos s' + 8 = nlen (s_file s0).
Proof.
  intros [Hfm Hlen] Hfail Hfile. rewrite written_footer_eq.
  apply (read_metadata_trailer _ (magic ++ data_bytes compress cfg bs)); try assumption.
  rewrite Hfile, file_layout, <- app_assoc. reflexivity.
Qed.

Theorem read_metadata_ok cfg bs sched :
  footer_ok compress cfg bs ->
  exists s', read_metadata (mk_src (file_of_batches compress cfg bs) sched None) =
               Ok (footer_meta cfg (map (fun b => snd (write_batch compress cfg b)) bs), s') /\
             s_fail s' = None /\ s_file s' = file_of_batches compress cfg bs /\
             s_pos s' + 8 = nlen (file_of_batches compress cfg bs).
Proof.
  intros Hft.
  exact (read_metadata_at cfg bs (mk_src (file_of_batches compress cfg bs) sched None) Hft eq_refl eq_refl).
Qed.

Lemma column_pages_headers cfg j c b :
  map pg_header (column_pages compress cfg j c b) = map (hdr_of (cfg_codec cfg) c) (col_ess cfg j b).
Proof. rewrite column_pages_eq, map_map. reflexivity. Qed.

Lemma column_pages_length cfg j c b : length (column_pages compress cfg j c b) = length (chunk (cfg_max cfg) b).
Proof. unfold column_pages. apply map_length. Qed.

Definition chunk_end (cm : column_meta) : nat :=
  Z.to_nat (cm_data_page_offset cm + cm_total_compressed cm).

(** [tail] is arbitrary: the call does not depend on anything past the chunk *)
Definition chunk_call_ok (F : bytes) (fuel : nat) (cm : column_meta) (hs : list page_header) : Prop :=
  forall s0 tail, s_fail s0 = None -> s_file s0 = firstn (chunk_end cm) F ++ tail ->
  exists s', page_headers_at_offset fuel (cm_data_page_offset cm) (cm_num_values cm) s0 = Ok (hs, s') /\
             s_fail s' = None /\ s_file s' = s_file s0 /\
             Z.of_N (s_pos s') = (cm_data_page_offset cm + cm_total_compressed cm)%Z.

Lemma chunk_call_nth cfg bs i j b c fuel :
  cfg_ok cfg -> batch_ok compress cfg b ->
  nth_error bs i = Some b -> nth_error (columns (cfg_fields cfg)) j = Some c ->
  (length (chunk (cfg_max cfg) b) <= fuel)%nat ->
  exists rg cc cm,
    nth_error (fm_row_groups (written_footer cfg bs)) i = Some rg /\
    nth_error (rg_columns rg) j = Some cc /\ cc_meta cc = Some cm /\
    chunk_call_ok (file_of_batches compress cfg bs) fuel cm (map pg_header (column_pages compress cfg j c b)).
Proof.
  intros Hcfg Hb Hi Hj Hfuel.
  pose proof (footer_chunk_nth compress cfg bs i j b c Hi Hj) as Hft. cbv zeta in Hft.
  destruct Hft as (rg & Hrg & _ & _ & Hcc).
  destruct (file_split compress cfg bs i j b c Hi Hj) as (pre & post & Hfile & Hpre).
  exists rg. eexists. eexists. split; [exact Hrg|]. split; [exact Hcc|]. split; [reflexivity|].
  intros s0 tail Hfail HF. unfold chunk_end in HF.
  cbn [cc_meta cm_data_page_offset cm_num_values cm_total_compressed] in HF |- *.
  destruct (chunk_of_pages_counts compress cfg b j c) as [Hnv Htc]. rewrite Hnv, Htc. rewrite Htc in HF.
  unfold col_bytes in HF |- *. cbn [fst snd] in HF |- *. rewrite <- Hpre in HF |- *.
  rewrite writer_reader_chunk_bytes in Hfile.
  set (ch := ReaderProofs.chunk_bytes compress (cfg_codec cfg) c (col_ess cfg j b)) in *.
  assert (Hk : Z.to_nat (Z.of_N (nlen pre) + Z.of_N (nlen ch)) = length (pre ++ ch)).
  { rewrite app_length. unfold nlen. lia. }
  rewrite Hk, Hfile, app_assoc, firstn_app_exact, <- app_assoc in HF.
  pose proof (col_pages_pre compress cfg b j c Hcfg Hb Hj) as Hpages.
  destruct Hcfg as (Hmax & _). destruct Hb as (Hne & _).
  destruct (headers_at_chunk (cfg_codec cfg) c (col_ess cfg j b) pre tail fuel s0 Hpages) as (s' & Hrun & Hn & Hf & Hp).
  - unfold col_ess. intros E. apply map_eq_nil in E. exact (chunk_not_nil (cfg_max cfg) b Hne E).
  - exact Hfail.
  - exact HF.
  - unfold col_ess. rewrite map_length. exact Hfuel.
  - exists s'. rewrite column_pages_headers. split; [exact Hrun|]. split; [exact Hn|].
    split; [exact Hf|]. rewrite Hp. fold ch. lia.
Qed.

Theorem page_headers_at_offset_local cfg bs i j b c rg cc cm fuel s0 tail :
  cfg_ok cfg -> batch_ok compress cfg b ->
  nth_error bs i = Some b -> nth_error (columns (cfg_fields cfg)) j = Some c ->
  nth_error (fm_row_groups (footer_meta cfg (map (fun b => snd (write_batch compress cfg b)) bs))) i = Some rg ->
  nth_error (rg_columns rg) j = Some cc -> cc_meta cc = Some cm ->
  (length (column_pages compress cfg j c b) <= fuel)%nat ->
  s_fail s0 = None ->
  s_file s0 = firstn (chunk_end cm) (file_of_batches compress cfg bs) ++ tail ->
  exists s', page_headers_at_offset fuel (cm_data_page_offset cm) (cm_num_values cm) s0 =
               Ok (map pg_header (column_pages compress cfg j c b), s') /\
             s_fail s' = None /\ s_file s' = s_file s0 /\
             Z.of_N (s_pos s') = (cm_data_page_offset cm + cm_total_compressed cm)%Z.
Proof.
  intros Hcfg Hb Hi Hj Hrg Hcc Hcm Hfuel Hfail Hfile. rewrite column_pages_length in Hfuel.
  destruct (chunk_call_nth cfg bs i j b c fuel Hcfg Hb Hi Hj Hfuel) as (rg' & cc' & cm' & Hrg' & Hcc' & Hcm' & Hcall).
  unfold written_footer in Hrg'. rewrite Hrg in Hrg'. injection Hrg' as <-.
  rewrite Hcc in Hcc'. injection Hcc' as <-. rewrite Hcm in Hcm'. injection Hcm' as <-.
  exact (Hcall s0 tail Hfail Hfile).
Qed.

Theorem page_headers_at_offset_ok cfg bs i j b c rg cc cm fuel s0 :
  cfg_ok cfg -> batch_ok compress cfg b ->
  nth_error bs i = Some b -> nth_error (columns (cfg_fields cfg)) j = Some c ->
  nth_error (fm_row_groups (footer_meta cfg (map (fun b => snd (write_batch compress cfg b)) bs))) i = Some rg ->
  nth_error (rg_columns rg) j = Some cc -> cc_meta cc = Some cm ->
  (length (column_pages compress cfg j c b) <= fuel)%nat ->
  s_fail s0 = None -> s_file s0 = file_of_batches compress cfg bs ->
  exists s', page_headers_at_offset fuel (cm_data_page_offset cm) (cm_num_values cm) s0 =
               Ok (map pg_header (column_pages compress cfg j c b), s') /\
             s_fail s' = None /\ s_file s' = file_of_batches compress cfg bs /\
             Z.of_N (s_pos s') = (cm_data_page_offset cm + cm_total_compressed cm)%Z.
Proof.
  intros Hcfg Hb Hi Hj Hrg Hcc Hcm Hfuel Hfail Hfile.
  destruct (page_headers_at_offset_local cfg bs i j b c rg cc cm fuel s0
              (skipn (chunk_end cm) (file_of_batches compress cfg bs)) Hcfg Hb Hi Hj Hrg Hcc Hcm Hfuel Hfail)
    as (s' & Hrun & Hn & Hf & Hp).
  - rewrite firstn_skipn. exact Hfile.
  - exists s'. split; [exact Hrun|]. split; [exact Hn|]. split; [rewrite Hf; exact Hfile | exact Hp].
Qed.

Definition chunk_headers (cfg : config) (b : list value) (ic : nat * col) : list page_header :=
  map pg_header (column_pages compress cfg (fst ic) (snd ic) b).

Definition all_headers (cfg : config) (bs : list (list value)) : list page_header :=
  flat_map (fun b => flat_map (fun '(j, c) => map pg_header (column_pages compress cfg j c b))
                              (index_from 0 (columns (cfg_fields cfg)))) bs.

Definition chunk_reports (F : bytes) (fuel : nat) (hs : list page_header) (cc : column_chunk) : Prop :=
  exists cm, cc_meta cc = Some cm /\ chunk_call_ok F fuel cm hs.

Lemma headers_of_chunks_ok F fuel : forall hss ccs acc s,
  Forall2 (chunk_reports F fuel) hss ccs -> s_fail s = None -> s_file s = F ->
  exists s', headers_of_chunks fuel ccs acc s = Ok (acc ++ concat hss, s') /\
             s_fail s' = None /\ s_file s' = F.
Proof.
  intros hss ccs acc s Hrel. revert acc s.
  induction Hrel as [|hs cc hss ccs' Hcc Hrel' IH]; intros acc s Hfail Hfile.
  - exists s. cbn [headers_of_chunks concat]. rewrite app_nil_r. split; [reflexivity|]. split; assumption.
  - destruct Hcc as (cm & Hmeta & Hcall). cbn [headers_of_chunks]. rewrite Hmeta.
    destruct (Hcall s (skipn (chunk_end cm) F) Hfail) as (s1 & Hrun & Hn1 & Hf1 & _).
    { rewrite firstn_skipn. exact Hfile. }
    rewrite (bind_ok Hrun). cbv beta. rewrite Hfile in Hf1.
    destruct (IH (acc ++ hs) s1 Hn1 Hf1) as (s2 & Hrest & Hn2 & Hf2).
    exists s2. rewrite Hrest. cbn [concat]. rewrite <- app_assoc. split; [reflexivity|]. split; assumption.
Qed.

Lemma footer_chunks_report cfg bs fuel :
  cfg_ok cfg -> Forall (batch_ok compress cfg) bs ->
  Forall (fun b => (length (chunk (cfg_max cfg) b) <= fuel)%nat) bs ->
  Forall2 (chunk_reports (file_of_batches compress cfg bs) fuel)
    (flat_map (fun b => map (chunk_headers cfg b) (index_from 0 (columns (cfg_fields cfg)))) bs)
    (flat_map rg_columns (fm_row_groups (written_footer cfg bs))).
Proof.
  intros Hcfg Hbs Hfuel. apply Forall2_flat_map. apply Forall2_nth_intro.
  - unfold written_footer. rewrite footer_row_groups_length. reflexivity.
  - intros i b rg Hi Hrg.
    rewrite Forall_forall in Hbs, Hfuel.
    pose proof (Hbs b (nth_error_In _ _ Hi)) as Hb. pose proof (Hfuel b (nth_error_In _ _ Hi)) as Hfb.
    assert (Hm : rg_matches compress cfg b rg).
    { pose proof (row_groups_rel compress cfg bs 4) as Hrel.
      apply (Forall2_nth_error _ _ _ i b rg Hrel Hi).
      rewrite written_footer_eq in Hrg. exact Hrg. }
    apply Forall2_nth_intro.
    + rewrite map_length. exact (Forall2_same_length _ _ _ (rg_matches_rel compress cfg b rg Hm)).
    + intros j hs cc Hhs Hcc.
      assert (Hjlt : (j < length (columns (cfg_fields cfg)))%nat).
      { rewrite <- (index_from_length _ 0%nat), <- (map_length (chunk_headers cfg b)).
        apply nth_error_Some. congruence. }
      destruct (nth_error_lt j _ Hjlt) as (c & Hj).
      rewrite nth_error_map, (index_from_nth _ 0%nat j c Hj) in Hhs. cbn [option_map Nat.add] in Hhs.
      injection Hhs as <-.
      destruct (chunk_call_nth cfg bs i j b c fuel Hcfg Hb Hi Hj Hfb)
        as (rg' & cc' & cm & Hrg' & Hcc' & Hcm & Hcall).
      rewrite Hrg in Hrg'. injection Hrg' as <-. rewrite Hcc in Hcc'. injection Hcc' as <-.
      exists cm. split; [exact Hcm | exact Hcall].
Qed.

Lemma all_headers_eq cfg bs :
  concat (flat_map (fun b => map (chunk_headers cfg b) (index_from 0 (columns (cfg_fields cfg)))) bs) =
  all_headers cfg bs.
Proof.
  rewrite concat_flat_map_map. unfold all_headers. apply flat_map_ext. intros b.
  apply flat_map_ext. intros [j c]. reflexivity.
Qed.

(** [fuel] bounds the pages of one chunk (a batch of [n] records has
    [ceil (n / cfg_max)] pages per column) *)
Theorem page_headers_ok cfg bs fuel s0 :
  cfg_ok cfg -> Forall (batch_ok compress cfg) bs ->
  Forall (fun b => (length (chunk (cfg_max cfg) b) <= fuel)%nat) bs ->
  s_fail s0 = None -> s_file s0 = file_of_batches compress cfg bs ->
  exists s',
    page_headers fuel (footer_meta cfg (map (fun b => snd (write_batch compress cfg b)) bs)) s0 =
      Ok (flat_map (fun b => flat_map (fun '(j, c) => map pg_header (column_pages compress cfg j c b))
                                      (index_from 0 (columns (cfg_fields cfg)))) bs, s') /\
    s_fail s' = None /\ s_file s' = file_of_batches compress cfg bs.
Proof.
  intros Hcfg Hbs Hfuel Hfail Hfile. unfold page_headers.
  destruct (headers_of_chunks_ok _ fuel _ _ [] s0 (footer_chunks_report cfg bs fuel Hcfg Hbs Hfuel) Hfail Hfile)
    as (s' & Hrun & Hn & Hf).
  exists s'. split; [|split; assumption].
  unfold written_footer in Hrun. rewrite Hrun. cbn [app]. rewrite all_headers_eq. reflexivity.
Qed.

(** ** C16: ReadMetaData followed by PageHeaders on the footer it returned *)
Theorem introspect_ok cfg bs sched fuel :
  cfg_ok cfg -> Forall (batch_ok compress cfg) bs -> footer_ok compress cfg bs ->
  Forall (fun b => (length b <= fuel)%nat) bs ->
  exists s1 s2,
    read_metadata (mk_src (file_of_batches compress cfg bs) sched None) = Ok (written_footer cfg bs, s1) /\
    page_headers fuel (written_footer cfg bs) s1 = Ok (all_headers cfg bs, s2).
Proof.
  intros Hcfg Hbs Hft Hfuel.
  destruct (read_metadata_ok cfg bs sched Hft) as (s1 & Hrd & Hn1 & Hf1 & _).
  destruct (page_headers_ok cfg bs fuel s1 Hcfg Hbs) as (s2 & Hph & _); [|exact Hn1|exact Hf1|].
  - eapply Forall_impl; [|exact Hfuel]. intros b Hb. cbv beta in *.
    pose proof (chunk_length_le (cfg_max cfg) b). lia.
  - exists s1, s2. split; [exact Hrd | exact Hph].
Qed.

End WithCodec.

(** ** The three calls on a tiny configuration: identity codec; one optional
    int32 column and one required string column; one record per page; two row
    groups (two pages per chunk, then one) *)
Module Example.
Definition cid (c : Z) (b : bytes) : bytes := b.
Definition fs0 : list field := [ ([97], Opt, TLeaf PInt32); ([99], Req, TLeaf PString) ].
Definition cfg0 : config := {| cfg_fields := fs0; cfg_max := 1; cfg_codec := CODEC_UNCOMPRESSED |}.
Definition rA : value := VGroup [VNum 5; VStr [1; 2; 3]].
Definition rB : value := VGroup [VNull; VStr []].
Definition bs0 : list (list value) := [[rA; rB]; [rA]].
Definition file0 : bytes := file_of_batches cid cfg0 bs0.
Definition fm0 : file_meta := written_footer cid cfg0 bs0.
Definition colA : col := {| c_path := [[97]]; c_reps := [Opt]; c_prim := PInt32 |}.
Definition colC : col := {| c_path := [[99]]; c_reps := [Req]; c_prim := PString |}.

Example hyps_hold :
  cfg_okb cfg0 = true /\ forallb (batch_okb cid cfg0) bs0 = true /\ footer_okb cid cfg0 bs0 = true.
Proof. vm_compute. repeat split. Qed.

Example columns_eval : columns fs0 = [colA; colC].
Proof. vm_compute. reflexivity. Qed.

Example read_metadata_eval :
  match read_metadata (mk_src file0 [1; 2; 3]%nat None) with
  | Ok (fm, s) => fm = fm0 /\ s_pos s + 8 = nlen file0
  | _ => False
  end.
Proof. vm_compute. split; reflexivity. Qed.

Example footer_chunks_eval :
  map (fun rg => map (fun cc => match cc_meta cc with
                                | Some cm => (cm_data_page_offset cm, cm_num_values cm, cm_total_compressed cm)
                                | None => (0, 0, 0)%Z
                                end) (rg_columns rg)) (fm_row_groups fm0) =
  [[(4, 2, 70); (74, 2, 63)]; [(137, 1, 43); (180, 1, 36)]]%Z.
Proof. vm_compute. reflexivity. Qed.

(** 74, 2: the string column of row group 0 in [footer_chunks_eval]; 137 is
    where the next chunk starts *)
Example page_headers_at_offset_eval :
  match page_headers_at_offset 2 74 2 (mk_src file0 [] None) with
  | Ok (hs, s) => hs = map pg_header (column_pages cid cfg0 1 colC [rA; rB]) /\ length hs = 2%nat /\ s_pos s = 137
  | _ => False
  end.
Proof. vm_compute. repeat split. Qed.

Example page_headers_eval :
  match page_headers 2 fm0 (mk_src file0 [] None) with
  | Ok (hs, s) => hs = all_headers cid cfg0 bs0 /\ length hs = 6%nat
  | _ => False
  end.
Proof. vm_compute. repeat split. Qed.

Example page_headers_fuel_tight :
  match page_headers 1 fm0 (mk_src file0 [] None) with Ok _ => False | _ => True end.
Proof. vm_compute. exact I. Qed.

Lemma hyps0 :
  cfg_ok cfg0 /\ Forall (batch_ok cid cfg0) bs0 /\ footer_ok cid cfg0 bs0.
Proof.
  destruct hyps_hold as (H1 & H2 & H3). split; [apply cfg_okb_sound; exact H1|]. split.
  - apply Forall_forall. intros b Hb. rewrite forallb_forall in H2. apply batch_okb_sound, H2, Hb.
  - apply footer_okb_sound. exact H3.
Qed.

Example read_metadata_instance :
  exists s', read_metadata (mk_src file0 [1; 2; 3]%nat None) = Ok (fm0, s').
Proof.
  destruct hyps0 as (_ & _ & H3).
  destruct (read_metadata_ok cid cfg0 bs0 [1; 2; 3]%nat H3) as (s' & Hrd & _). exists s'. exact Hrd.
Qed.

Example page_headers_at_offset_instance :
  exists s', page_headers_at_offset 2 74 2 (mk_src file0 [] None) =
             Ok (map pg_header (column_pages cid cfg0 1 colC [rA; rB]), s').
Proof.
  destruct hyps0 as (H1 & H2 & _).
  assert (Hb : batch_ok cid cfg0 [rA; rB]).
  { rewrite Forall_forall in H2. apply H2. left. reflexivity. }
  pose proof (page_headers_at_offset_ok cid cfg0 bs0 0 1 [rA; rB] colC) as H.
  specialize (H _ _ _ 2%nat (mk_src file0 [] None) H1 Hb eq_refl eq_refl eq_refl eq_refl eq_refl).
  destruct H as (s' & Hrun & _).
  - vm_compute. lia.
  - reflexivity.
  - reflexivity.
  - exists s'. exact Hrun.
Qed.

Example page_headers_at_offset_truncated_eval :
  match page_headers_at_offset 2 74 2 (mk_src (firstn 137 file0) [] None) with
  | Ok (hs, s) => hs = map pg_header (column_pages cid cfg0 1 colC [rA; rB]) /\ s_pos s = 137
  | _ => False
  end.
Proof. vm_compute. repeat split. Qed.

Example introspect_instance :
  exists s1 s2,
    read_metadata (mk_src file0 [] None) = Ok (fm0, s1) /\
    page_headers 2 fm0 s1 = Ok (all_headers cid cfg0 bs0, s2).
Proof.
  destruct hyps0 as (H1 & H2 & H3). apply introspect_ok; try assumption.
  repeat constructor.
Qed.
End Example.

Print Assumptions read_metadata_ok.
Print Assumptions page_headers_at_offset_local.
Print Assumptions page_headers_at_offset_ok.
Print Assumptions page_headers_ok.
Print Assumptions introspect_ok.
Print Assumptions Example.introspect_instance.
