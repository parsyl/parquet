(** * ParseProofs: property C14 of the struct parser ([Parse.v]) — excluded
    fields are inert and embedding equals inlining.

    - Adding excluded fields (a single unexported name with any Go type and
      any tag, or any field tagged "-") to any declarations at any positions
      leaves [parse_root] unchanged.
    - Moving a block of fields of any declaration (the root or a nested group)
      into a fresh, exported, non-primitive embedded struct keeps a successful
      parse unchanged.  When the original parse fails the equation can fail
      ([Examples.embed_converse_refuted]: a field of the undeclared type gets
      declared by the embedding); it holds with the extra hypotheses that no
      field refers to the fresh name ([unreferenced]) and [root <> ename].
    - The fuel [S (length ds)] of [parse_root] never cuts a parse that succeeds
      with more fuel (pigeonhole on declared names). *)
From Coq Require Import List NArith ZArith Lia Bool Arith PeanoNat.
From Coq Require Import ZifyN ZifyNat ZifyBool.
From PQ Require Import Bytes Schema Parse.
Import ListNotations.
Local Open Scope N_scope.

Lemma bytes_eqb_eq a b : bytes_eqb a b = true <-> a = b.
Proof. unfold bytes_eqb. destruct (list_eq_dec N.eq_dec a b); split; congruence. Qed.

Lemma bytes_eqb_refl a : bytes_eqb a a = true.
Proof. apply bytes_eqb_eq. reflexivity. Qed.

Lemma bytes_eqb_neq a b : bytes_eqb a b = false <-> a <> b.
Proof. unfold bytes_eqb. destruct (list_eq_dec N.eq_dec a b); split; congruence. Qed.

Lemma bytes_eqb_spec a b : reflect (a = b) (bytes_eqb a b).
Proof. unfold bytes_eqb. destruct (list_eq_dec N.eq_dec a b); constructor; assumption. Qed.

Lemma bytes_eqb_sym a b : bytes_eqb a b = bytes_eqb b a.
Proof. destruct (bytes_eqb_spec a b), (bytes_eqb_spec b a); congruence. Qed.

Lemma lookup_cons n fs r name :
  lookup ((n, fs) :: r) name = if bytes_eqb n name then Some fs else lookup r name.
Proof. reflexivity. Qed.

Lemma lookup_in ds n sub : lookup ds n = Some sub -> In n (map fst ds).
Proof.
  induction ds as [|[n0 fs] r IH]; [discriminate|].
  rewrite lookup_cons. destruct (bytes_eqb_spec n0 n) as [He|_].
  - intros _. left. exact He.
  - intros H. right. exact (IH H).
Qed.

(** ** One field at a time: [children] as a concatenation of per-field items *)

Definition field_items (fu : nat) (ds : decls) (f : fdecl) : option (list pfield) :=
  match raw_of f with
  | RSkip => Some []
  | RUnsupported => None
  | RField r =>
      match prim_of_name (rf_type r) with
      | Some p => if rf_embedded r then None
                  else Some [PLeaf (rf_name r) (rf_col r) (rf_rep r) p]
      | None =>
          match lookup ds (rf_type r) with
          | None => None
          | Some sub =>
              match children fu ds sub with
              | None => None
              | Some kids =>
                  if rf_embedded r then Some kids
                  else Some [PGroup (rf_name r) (rf_col r) (rf_rep r) (rf_type r) kids]
              end
          end
      end
  end.

Lemma children_nil fu ds : children (S fu) ds [] = Some [].
Proof. reflexivity. Qed.

Lemma children_cons fu ds f rest :
  children (S fu) ds (f :: rest) =
  match children (S fu) ds rest with
  | None => None
  | Some tail =>
      match field_items fu ds f with
      | None => None
      | Some xs => Some (xs ++ tail)
      end
  end.
Proof.
  destruct (children (S fu) ds rest) as [tail|] eqn:E; cbn [children] in E |- *; rewrite E; [|reflexivity].
  unfold field_items.
  destruct (raw_of f) as [|r|]; [reflexivity| |reflexivity].
  destruct (prim_of_name (rf_type r)) as [p|].
  - destruct (rf_embedded r); reflexivity.
  - destruct (lookup ds (rf_type r)) as [sub|]; [|reflexivity].
    destruct (children fu ds sub) as [kids|]; [|reflexivity].
    destruct (rf_embedded r); reflexivity.
Qed.

Lemma children_app fu ds a : forall b,
  children (S fu) ds (a ++ b) =
  match children (S fu) ds b with
  | None => None
  | Some tb =>
      match children (S fu) ds a with
      | None => None
      | Some ta => Some (ta ++ tb)
      end
  end.
Proof.
  induction a as [|f a IH]; intros b.
  - cbn [app]. rewrite children_nil. destruct (children (S fu) ds b); reflexivity.
  - cbn [app]. rewrite !children_cons, IH.
    destruct (children (S fu) ds b) as [tb|]; [|reflexivity].
    destruct (children (S fu) ds a) as [ta|]; [|reflexivity].
    destruct (field_items fu ds f) as [xs|]; [|reflexivity].
    rewrite app_assoc. reflexivity.
Qed.

Lemma children_app_some fu ds a b x :
  children (S fu) ds (a ++ b) = Some x ->
  exists ta tb, children (S fu) ds a = Some ta /\ children (S fu) ds b = Some tb /\ x = ta ++ tb.
Proof.
  rewrite children_app. intros H.
  destruct (children (S fu) ds b) as [tb|]; [|discriminate].
  destruct (children (S fu) ds a) as [ta|]; [|discriminate].
  exists ta, tb. repeat split. congruence.
Qed.

Lemma children_app_intro fu ds a b ta tb :
  children (S fu) ds a = Some ta -> children (S fu) ds b = Some tb ->
  children (S fu) ds (a ++ b) = Some (ta ++ tb).
Proof. intros Ha Hb. rewrite children_app, Ha, Hb. reflexivity. Qed.

Lemma children_ext fu fu' ds ds' fs :
  (forall f, In f fs -> field_items fu' ds' f = field_items fu ds f) ->
  children (S fu') ds' fs = children (S fu) ds fs.
Proof.
  induction fs as [|f fs IH]; intros H; [reflexivity|].
  rewrite !children_cons, IH, (H f (or_introl eq_refl)); [reflexivity|].
  intros g Hg. apply H. right. exact Hg.
Qed.

Definition group_field (ds : decls) (f : fdecl) (r : rawfield) (sub : list fdecl) : Prop :=
  raw_of f = RField r /\ prim_of_name (rf_type r) = None /\ lookup ds (rf_type r) = Some sub.

Lemma children_transfer fu fu' ds ds' fs x :
  children (S fu) ds fs = Some x ->
  (forall f r sub kids, In f fs -> group_field ds f r sub -> children fu ds sub = Some kids ->
     exists sub', lookup ds' (rf_type r) = Some sub' /\ children fu' ds' sub' = Some kids) ->
  children (S fu') ds' fs = Some x.
Proof.
  revert x. induction fs as [|f fs IH]; intros x Hx H; [exact Hx|].
  rewrite children_cons in Hx. rewrite children_cons.
  destruct (children (S fu) ds fs) as [tail|]; [|discriminate].
  rewrite (IH tail eq_refl (fun g r sub kids Hg => H g r sub kids (or_intror Hg))).
  specialize (H f). revert Hx. unfold field_items, group_field in *.
  destruct (raw_of f) as [|r|]; [auto| |auto].
  destruct (prim_of_name (rf_type r)) as [p|] eqn:Hp; [auto|].
  destruct (lookup ds (rf_type r)) as [sub|] eqn:Hl; [|discriminate].
  destruct (children fu ds sub) as [kids|] eqn:Hk; [|discriminate].
  destruct (H r sub kids (or_introl eq_refl) (conj eq_refl (conj Hp Hl)) Hk) as (sub' & -> & ->).
  auto.
Qed.

(** ** Excluded fields are inert *)

Lemma excluded_skip f : excluded f = true -> raw_of f = RSkip.
Proof.
  unfold excluded, raw_of. destruct (fd_names f) as [|n [|n2 ns]]; intros H.
  - destruct (fd_type f) as [t| | | | | | |]; try discriminate.
    destruct (is_private t); [reflexivity|]. cbn [orb] in H. rewrite H. reflexivity.
  - destruct (is_private n); [reflexivity|]. cbn [orb] in H.
    destruct (fd_tag f) as [t|]; [|discriminate]. rewrite H. reflexivity.
  - reflexivity.
Qed.

Lemma children_insert_skip fu ds f : raw_of f = RSkip ->
  forall i fs, children (S fu) ds (insert_at i f fs) = children (S fu) ds fs.
Proof.
  intros Hf.
  assert (H0 : forall fs, children (S fu) ds (f :: fs) = children (S fu) ds fs).
  { intros fs. rewrite children_cons. unfold field_items. rewrite Hf.
    destruct (children (S fu) ds fs); reflexivity. }
  induction i as [|i IH]; intros fs.
  - destruct fs; apply H0.
  - destruct fs as [|y r]; [apply H0|].
    cbn [insert_at]. rewrite !children_cons, IH. reflexivity.
Qed.

Lemma lookup_decorate ds tname i f name :
  lookup (decorate ds tname i f) name =
  match lookup ds name with
  | Some fs => if bytes_eqb name tname then Some (insert_at i f fs) else Some fs
  | None => None
  end.
Proof.
  induction ds as [|[n fs] r IH]; [reflexivity|].
  cbn [decorate]. destruct (bytes_eqb n tname) eqn:Hn; rewrite !lookup_cons.
  - apply bytes_eqb_eq in Hn. subst n. rewrite (bytes_eqb_sym name tname).
    destruct (bytes_eqb tname name); [reflexivity|]. destruct (lookup r name); reflexivity.
  - destruct (bytes_eqb_spec n name) as [<-|_]; [|exact IH]. rewrite Hn. reflexivity.
Qed.

Lemma length_decorate ds tname i f : length (decorate ds tname i f) = length ds.
Proof.
  induction ds as [|[n fs] r IH]; [reflexivity|].
  cbn [decorate]. destruct (bytes_eqb n tname); cbn [length]; [reflexivity|]. rewrite IH. reflexivity.
Qed.

Lemma children_decorate ds tname i f : raw_of f = RSkip ->
  forall fuel fs, children fuel (decorate ds tname i f) fs = children fuel ds fs.
Proof.
  intros Hf. induction fuel as [|fu IH]; intros fs; [reflexivity|].
  apply children_ext. intros g _. unfold field_items.
  destruct (raw_of g) as [|r|]; [reflexivity| |reflexivity].
  destruct (prim_of_name (rf_type r)) as [p|]; [reflexivity|].
  rewrite lookup_decorate.
  destruct (lookup ds (rf_type r)) as [sub|]; [|reflexivity].
  destruct (bytes_eqb (rf_type r) tname); rewrite IH; [|reflexivity].
  destruct fu as [|fu']; [reflexivity|].
  rewrite (children_insert_skip fu' ds f Hf). reflexivity.
Qed.

Theorem decorate_inert ds root tname i f :
  excluded f = true -> parse_root (decorate ds tname i f) root = parse_root ds root.
Proof.
  intros Hex. pose proof (excluded_skip f Hex) as Hf.
  unfold parse_root. rewrite lookup_decorate, length_decorate.
  destruct (lookup ds root) as [fs|]; [|reflexivity].
  destruct (bytes_eqb root tname); rewrite (children_decorate ds tname i f Hf); [|reflexivity].
  apply children_insert_skip. exact Hf.
Qed.

Definition decorate_all (ds : decls) (ins : list (bytes * nat * fdecl)) : decls :=
  fold_left (fun d x => decorate d (fst (fst x)) (snd (fst x)) (snd x)) ins ds.

Theorem decorate_all_inert ins : forall ds root,
  Forall (fun x : bytes * nat * fdecl => excluded (snd x) = true) ins ->
  parse_root (decorate_all ds ins) root = parse_root ds root.
Proof.
  unfold decorate_all.
  induction ins as [|[[tn i] f] ins IH]; intros ds root Hall; [reflexivity|].
  cbn [fold_left fst snd]. rewrite IH by exact (Forall_inv_tail Hall).
  apply decorate_inert. exact (Forall_inv Hall).
Qed.

(** ** The fuel of [parse_root] is enough *)

Lemma children_mono ds : forall fuel fs x,
  children fuel ds fs = Some x -> children (S fuel) ds fs = Some x.
Proof.
  induction fuel as [|fu IH]; intros fs x Hx; [discriminate|].
  apply (children_transfer fu (S fu) ds ds fs x Hx).
  intros f r sub kids _ (_ & _ & Hl) Hk. exists sub. split; [exact Hl|exact (IH sub kids Hk)].
Qed.

Lemma children_mono_le ds fuel fuel' fs x :
  (fuel <= fuel')%nat -> children fuel ds fs = Some x -> children fuel' ds fs = Some x.
Proof.
  intros Hle Hx. induction Hle as [|m Hle IH]; [exact Hx|]. apply children_mono. exact IH.
Qed.

Lemma children_min ds fs : forall fuel x,
  children fuel ds fs = Some x ->
  exists m, (S m <= fuel)%nat /\ children (S m) ds fs = Some x /\ children m ds fs = None.
Proof.
  induction fuel as [|fu IH]; intros x Hx; [discriminate|].
  destruct (children fu ds fs) as [y|] eqn:Hy.
  - assert (y = x) by (apply children_mono in Hy; congruence). subst y.
    destruct (IH x eq_refl) as (m & Hm & H1 & H2). exists m. repeat split; [lia|exact H1|exact H2].
  - exists fu. repeat split; [lia|exact Hx|exact Hy].
Qed.

(** A successful parse never nests deeper than the number of declarations (a
    struct cannot contain itself).  [n] is declared and its fields parse with
    fuel [S j] but not with [j]: *)
Definition exact_rank (ds : decls) (n : bytes) (j : nat) : Prop :=
  exists sub x, lookup ds n = Some sub /\ children (S j) ds sub = Some x /\ children j ds sub = None.

(** a parse that needs fuel [S (S m)] has a field whose type needs [S m] *)
Lemma exact_field ds m : forall fs x,
  children (S (S m)) ds fs = Some x -> children (S m) ds fs = None ->
  exists n, exact_rank ds n m.
Proof.
  induction fs as [|f fs IH]; intros x Hx Hn; [rewrite children_nil in Hn; discriminate|].
  rewrite children_cons in Hx, Hn.
  destruct (children (S (S m)) ds fs) as [tail|] eqn:Ht; [|discriminate].
  destruct (children (S m) ds fs) as [tail'|] eqn:Ht'; [|exact (IH tail eq_refl eq_refl)].
  destruct (field_items (S m) ds f) as [xs|] eqn:Hf; [|discriminate].
  destruct (field_items m ds f) as [xs'|] eqn:Hf'; [discriminate|].
  unfold field_items in Hf, Hf'.
  destruct (raw_of f) as [|r|]; [discriminate| |discriminate].
  destruct (prim_of_name (rf_type r)) as [p|]; [congruence|].
  destruct (lookup ds (rf_type r)) as [sub|] eqn:Hl; [|discriminate].
  destruct (children (S m) ds sub) as [kids|] eqn:Hk; [|discriminate].
  destruct (children m ds sub) as [kids'|] eqn:Hk'.
  - destruct (rf_embedded r); discriminate.
  - exists (rf_type r), sub, kids. auto.
Qed.

Lemma exact_chain ds : forall m fs x,
  children (S m) ds fs = Some x -> children m ds fs = None ->
  forall j, (j < m)%nat -> exists n, exact_rank ds n j.
Proof.
  induction m as [|m IH]; intros fs x Hx Hn j Hj; [lia|].
  destruct (exact_field ds m fs x Hx Hn) as (n & sub & y & Hl & Hy & Hy').
  destruct (Nat.eq_dec j m) as [->|Hne].
  - exists n, sub, y. auto.
  - apply (IH sub y Hy Hy'). lia.
Qed.

Lemma exact_rank_unique ds n j j' : exact_rank ds n j -> exact_rank ds n j' -> j = j'.
Proof.
  intros (sub & x & Hl & Hx & Hn) (sub' & x' & Hl' & Hx' & Hn').
  assert (sub' = sub) by congruence. subst sub'.
  destruct (Nat.lt_trichotomy j j') as [Hlt|[Heq|Hgt]]; [|exact Heq|].
  - apply (children_mono_le ds (S j) j') in Hx; [congruence|lia].
  - apply (children_mono_le ds (S j') j) in Hx'; [congruence|lia].
Qed.

Lemma rank_names ds : forall m,
  (forall j, (j < m)%nat -> exists n, exact_rank ds n j) ->
  exists names, length names = m /\ NoDup names /\ incl names (map fst ds) /\
                forall n, In n names -> exists j, (j < m)%nat /\ exact_rank ds n j.
Proof.
  induction m as [|m IH]; intros H.
  - exists []. repeat split; [constructor|intros n []|intros n []].
  - destruct IH as (names & Hlen & Hnd & Hinc & Hrk).
    { intros j Hj. apply H. lia. }
    destruct (H m (Nat.lt_succ_diag_r m)) as (n & Hn).
    exists (n :: names). repeat split.
    + cbn [length]. rewrite Hlen. reflexivity.
    + constructor; [|exact Hnd]. intros Hin. destruct (Hrk n Hin) as (j & Hj & Hnj).
      pose proof (exact_rank_unique ds n j m Hnj Hn). lia.
    + intros a [<-|Ha]; [|exact (Hinc a Ha)].
      destruct Hn as (sub & x & Hl & _). exact (lookup_in ds n sub Hl).
    + intros a [<-|Ha]; [exists m; split; [lia|exact Hn]|].
      destruct (Hrk a Ha) as (j & Hj & Hnj). exists j. split; [lia|exact Hnj].
Qed.

Theorem children_fuel_enough ds fuel fs x :
  children fuel ds fs = Some x -> children (S (length ds)) ds fs = Some x.
Proof.
  intros Hx. destruct (children_min ds fs fuel x Hx) as (m & _ & Hm1 & Hm2).
  destruct (rank_names ds m (exact_chain ds m fs x Hm1 Hm2)) as (names & Hlen & Hnd & Hinc & _).
  pose proof (NoDup_incl_length Hnd Hinc) as Hle. rewrite map_length, Hlen in Hle.
  apply (children_mono_le ds (S m)); [lia|exact Hm1].
Qed.

Lemma parse_root_intro ds root fs fuel t :
  lookup ds root = Some fs -> children fuel ds fs = Some t -> parse_root ds root = Some t.
Proof. intros Hl Hx. unfold parse_root. rewrite Hl. exact (children_fuel_enough ds fuel fs t Hx). Qed.

(** ** Embedding equals inlining *)

Lemma split3 {A} (i k : nat) (l : list A) :
  l = firstn i l ++ firstn k (skipn i l) ++ skipn (i + k) l.
Proof. rewrite skipn_add, firstn_skipn, firstn_skipn. reflexivity. Qed.

Section Embed.
  Variables (ds : decls) (tname ename : bytes) (i k : nat) (fs_t : list fdecl).
  Hypothesis Ht : lookup ds tname = Some fs_t.
  Hypothesis Hfresh : lookup ds ename = None.
  Hypothesis Hexp : is_private ename = false.
  Hypothesis Hnprim : prim_of_name ename = None.

  Let blkA := firstn i fs_t.
  Let blkB := firstn k (skipn i fs_t).
  Let blkC := skipn (i + k) fs_t.
  Let efield := FD [] (GBase ename) None.
  Let ds' := embed ds tname ename i k.

  Lemma lookup_embed_gen d name :
    lookup d ename = None ->
    lookup (embed d tname ename i k) name =
    match lookup d tname with
    | None => lookup d name
    | Some ft =>
        if bytes_eqb name tname then Some (firstn i ft ++ [efield] ++ skipn (i + k) ft)
        else if bytes_eqb name ename then Some (firstn k (skipn i ft))
        else lookup d name
    end.
  Proof.
    induction d as [|[n fs] r IH]; intros Hfr; [reflexivity|].
    rewrite lookup_cons in Hfr. destruct (bytes_eqb n ename) eqn:Hne; [discriminate|].
    cbn [embed]. rewrite (lookup_cons n fs r tname).
    destruct (bytes_eqb n tname) eqn:Hn; rewrite !lookup_cons.
    - apply bytes_eqb_eq in Hn. subst n.
      rewrite (bytes_eqb_sym name tname), (bytes_eqb_sym name ename).
      destruct (bytes_eqb tname name); reflexivity.
    - rewrite (IH Hfr). destruct (bytes_eqb_spec n name) as [<-|_]; [|reflexivity].
      rewrite Hn, Hne. destruct (lookup r tname); reflexivity.
  Qed.

  Lemma lookup_embed_t : lookup ds' tname = Some (blkA ++ [efield] ++ blkC).
  Proof. unfold ds'. rewrite (lookup_embed_gen ds tname Hfresh), Ht, bytes_eqb_refl. reflexivity. Qed.

  Lemma lookup_embed_e : lookup ds' ename = Some blkB.
  Proof.
    unfold ds'. rewrite (lookup_embed_gen ds ename Hfresh), Ht, bytes_eqb_refl.
    destruct (bytes_eqb_spec ename tname) as [H|_]; [|reflexivity]. rewrite H in Hfresh. congruence.
  Qed.

  Lemma lookup_embed_other name :
    name <> tname -> name <> ename -> lookup ds' name = lookup ds name.
  Proof.
    intros H1 H2. unfold ds'. rewrite (lookup_embed_gen ds name Hfresh), Ht.
    apply bytes_eqb_neq in H1. apply bytes_eqb_neq in H2. rewrite H1, H2. reflexivity.
  Qed.

  Lemma lookup_embed_declared name sub :
    lookup ds name = Some sub -> name <> tname -> lookup ds' name = Some sub.
  Proof.
    intros Hl H1. rewrite lookup_embed_other; [exact Hl|exact H1|].
    intros H2. rewrite H2, Hfresh in Hl. discriminate.
  Qed.

  Lemma field_items_efield fu :
    field_items fu ds' efield = children fu ds' blkB.
  Proof.
    unfold field_items, raw_of, efield. cbn [fd_names fd_type fd_tag]. rewrite Hexp.
    cbn [rf_type rf_embedded]. rewrite Hnprim, lookup_embed_e. destruct (children fu ds' blkB); reflexivity.
  Qed.

  (** A declaration that parses, given the general statement for field lists:
      that of [tname] block by block, with one more level for the middle one. *)
  Lemma embed_decl fu fu' :
    (forall fs x, children fu ds fs = Some x -> children fu' ds' fs = Some x) ->
    forall n sub kids, lookup ds n = Some sub -> children fu ds sub = Some kids ->
    exists sub', lookup ds' n = Some sub' /\ children (S fu') ds' sub' = Some kids.
  Proof.
    intros HP n sub kids Hl Hk. destruct (bytes_eqb_spec n tname) as [->|He].
    - assert (sub = fs_t) by congruence. subst sub. destruct fu as [|fu0]; [discriminate|].
      exists (blkA ++ [efield] ++ blkC). split; [exact lookup_embed_t|].
      rewrite (split3 i k fs_t) in Hk. fold blkA blkB blkC in Hk.
      apply children_app_some in Hk. destruct Hk as (ka & kbc & HA & HBC & ->).
      apply children_app_some in HBC. destruct HBC as (kb & kc & HB & HC & ->).
      apply children_app_intro; [apply children_mono, HP; exact HA|].
      apply children_app_intro; [|apply children_mono, HP; exact HC].
      rewrite children_cons, children_nil, field_items_efield, (HP _ _ HB), app_nil_r. reflexivity.
    - exists sub. split; [exact (lookup_embed_declared _ _ Hl He)|exact (children_mono ds' _ _ _ (HP sub kids Hk))].
  Qed.

  (** Twice the fuel suffices for the embedded version (one more level at
      every use of [tname]); [children_fuel_enough] then brings it back to
      the fuel of [parse_root]. *)
  Lemma embed_double : forall fu fs x,
    children fu ds fs = Some x -> children (fu + fu) ds' fs = Some x.
  Proof.
    induction fu as [|fu IH]; intros fs x Hx; [discriminate|].
    cbn [Nat.add]. rewrite Nat.add_succ_r.
    apply (children_transfer fu (S (fu + fu)) ds ds' fs x Hx).
    intros f r sub kids _ (_ & _ & Hl) Hk. exact (embed_decl fu _ IH _ sub kids Hl Hk).
  Qed.

  Lemma embed_inline_sec root t :
    parse_root ds root = Some t -> parse_root ds' root = Some t.
  Proof.
    unfold parse_root at 1. destruct (lookup ds root) as [fs|] eqn:Hl; [|discriminate]. intros Hx.
    destruct (embed_decl _ _ (embed_double _) root fs t Hl Hx) as (sub' & Hl' & Hx').
    exact (parse_root_intro ds' root sub' _ t Hl' Hx').
  Qed.

  (** *** The converse, when no field already refers to the fresh name *)

  Definition no_ref (f : fdecl) : Prop := forall r, raw_of f = RField r -> rf_type r <> ename.

  Hypothesis Hnoref : forall n fs, lookup ds n = Some fs -> Forall no_ref fs.

  Lemma blocks_noref : Forall no_ref blkA /\ Forall no_ref blkB /\ Forall no_ref blkC.
  Proof.
    pose proof (Hnoref tname fs_t Ht) as H. rewrite (split3 i k fs_t) in H.
    fold blkA blkB blkC in H. rewrite !Forall_app in H. exact H.
  Qed.

  Lemma embed_back_decl fu :
    (forall fs x, Forall no_ref fs -> children fu ds' fs = Some x -> children fu ds fs = Some x) ->
    forall n sub' kids, n <> ename -> lookup ds' n = Some sub' -> children fu ds' sub' = Some kids ->
    exists sub, lookup ds n = Some sub /\ children fu ds sub = Some kids.
  Proof.
    intros HP n sub' kids H2 Hl Hk. destruct (bytes_eqb_spec n tname) as [->|He].
    - rewrite lookup_embed_t in Hl. injection Hl as <-. destruct fu as [|fu0]; [discriminate|].
      exists fs_t. split; [exact Ht|]. destruct blocks_noref as (HnA & HnB & HnC).
      apply children_app_some in Hk. destruct Hk as (ka & kbc & HA & HBC & ->).
      rewrite children_cons, field_items_efield in HBC.
      destruct (children (S fu0) ds' blkC) as [kc|] eqn:HC; [|discriminate].
      destruct (children fu0 ds' blkB) as [kb|] eqn:HB; [|discriminate]. injection HBC as <-.
      rewrite (split3 i k fs_t). fold blkA blkB blkC.
      apply children_app_intro; [apply HP; assumption|].
      apply children_app_intro; [|apply HP; assumption].
      apply HP; [exact HnB|]. apply children_mono. exact HB.
    - rewrite (lookup_embed_other _ He H2) in Hl.
      exists sub'. split; [exact Hl|exact (HP sub' kids (Hnoref _ _ Hl) Hk)].
  Qed.

  Lemma embed_back : forall fu fs x,
    Forall no_ref fs -> children fu ds' fs = Some x -> children fu ds fs = Some x.
  Proof.
    induction fu as [|fu IH]; intros fs x Hnr Hx; [discriminate|].
    apply (children_transfer fu fu ds' ds fs x Hx).
    intros f r sub kids Hin (Hr & _ & Hl) Hk. apply (embed_back_decl fu IH _ sub kids); [|exact Hl|exact Hk].
    rewrite Forall_forall in Hnr. exact (Hnr f Hin r Hr).
  Qed.
End Embed.

Theorem embed_inline ds tname ename i k root fs t :
  lookup ds tname = Some fs -> lookup ds ename = None ->
  is_private ename = false -> prim_of_name ename = None ->
  parse_root ds root = Some t ->
  parse_root (embed ds tname ename i k) root = Some t.
Proof. intros Ht Hfr Hexp Hnp. apply (embed_inline_sec ds tname ename i k fs Ht Hfr Hexp Hnp). Qed.

(** no field of the (first) declaration of any name refers to [ename] *)
Definition unreferenced (ds : decls) (ename : bytes) : Prop :=
  forall n fs, lookup ds n = Some fs -> Forall (no_ref ename) fs.

Theorem embed_inline_conv ds tname ename i k root fs t :
  lookup ds tname = Some fs -> lookup ds ename = None ->
  is_private ename = false -> prim_of_name ename = None ->
  unreferenced ds ename -> root <> ename ->
  parse_root (embed ds tname ename i k) root = Some t ->
  parse_root ds root = Some t.
Proof.
  intros Ht Hfr Hexp Hnp Hnr Hroot Hx. unfold parse_root in Hx.
  destruct (lookup (embed ds tname ename i k) root) as [sub'|] eqn:Hl'; [|discriminate].
  destruct (embed_back_decl ds tname ename i k fs Ht Hfr Hexp Hnp Hnr _
              (embed_back ds tname ename i k fs Ht Hfr Hexp Hnp Hnr _) root sub' t Hroot Hl' Hx) as (sub & Hl & Hk).
  exact (parse_root_intro ds root sub _ t Hl Hk).
Qed.

Theorem embed_inline_eq ds tname ename i k root fs :
  lookup ds tname = Some fs -> lookup ds ename = None ->
  is_private ename = false -> prim_of_name ename = None ->
  unreferenced ds ename -> root <> ename ->
  parse_root (embed ds tname ename i k) root = parse_root ds root.
Proof.
  intros Ht Hfr Hexp Hnp Hnr Hroot.
  destruct (parse_root ds root) as [t|] eqn:H1.
  - exact (embed_inline ds tname ename i k root fs t Ht Hfr Hexp Hnp H1).
  - destruct (parse_root (embed ds tname ename i k) root) as [t|] eqn:H2; [|reflexivity].
    rewrite (embed_inline_conv ds tname ename i k root fs t Ht Hfr Hexp Hnp Hnr Hroot H2) in H1.
    discriminate.
Qed.

(** ** Equal file shapes *)

Definition file_shape (ds : decls) (root : bytes) : option (list field) :=
  option_map (map shape_of) (parse_root ds root).

Corollary shape_eq_decorate ds root tname i f :
  excluded f = true -> file_shape (decorate ds tname i f) root = file_shape ds root.
Proof. intros H. unfold file_shape. rewrite (decorate_inert ds root tname i f H). reflexivity. Qed.

Corollary shape_eq_decorate_all ds root ins :
  Forall (fun x : bytes * nat * fdecl => excluded (snd x) = true) ins ->
  file_shape (decorate_all ds ins) root = file_shape ds root.
Proof. intros H. unfold file_shape. rewrite (decorate_all_inert ins ds root H). reflexivity. Qed.

Corollary shape_eq_embed ds tname ename i k root fs t :
  lookup ds tname = Some fs -> lookup ds ename = None ->
  is_private ename = false -> prim_of_name ename = None ->
  parse_root ds root = Some t ->
  file_shape (embed ds tname ename i k) root = file_shape ds root.
Proof.
  intros Ht Hfr Hexp Hnp Hx. unfold file_shape.
  rewrite (embed_inline ds tname ename i k root fs t Ht Hfr Hexp Hnp Hx), Hx. reflexivity.
Qed.

Corollary shape_eq_embed_eq ds tname ename i k root fs :
  lookup ds tname = Some fs -> lookup ds ename = None ->
  is_private ename = false -> prim_of_name ename = None ->
  unreferenced ds ename -> root <> ename ->
  file_shape (embed ds tname ename i k) root = file_shape ds root.
Proof.
  intros Ht Hfr Hexp Hnp Hnr Hroot. unfold file_shape.
  rewrite (embed_inline_eq ds tname ename i k root fs Ht Hfr Hexp Hnp Hnr Hroot). reflexivity.
Qed.

Theorem shape_eq :
  (forall ds root tname i f,
     excluded f = true ->
     option_map (map shape_of) (parse_root (decorate ds tname i f) root) =
     option_map (map shape_of) (parse_root ds root)) /\
  (forall ds tname ename i k root fs t,
     lookup ds tname = Some fs -> lookup ds ename = None ->
     is_private ename = false -> prim_of_name ename = None ->
     parse_root ds root = Some t ->
     option_map (map shape_of) (parse_root (embed ds tname ename i k) root) =
     option_map (map shape_of) (parse_root ds root)).
Proof.
  split.
  - intros ds root tname i f H. exact (shape_eq_decorate ds root tname i f H).
  - intros ds tname ename i k root fs t H1 H2 H3 H4 H5.
    exact (shape_eq_embed ds tname ename i k root fs t H1 H2 H3 H4 H5).
Qed.

Module Examples.
  Definition t_int32 := GBase [105;110;116;51;50].
  Definition t_int64 := GBase [105;110;116;54;52].
  Definition t_string := GBase [115;116;114;105;110;103].
  Definition t_float64 := GBase [102;108;111;97;116;54;52].
  Definition Row := [82;111;119].
  Definition Hobby := [72;111;98;98;121].
  Definition Inner := [73;110;110;101;114].
  Definition Base := [66;97;115;101].
  Definition Mixin := [77;105;120;105;110].

  (** type Row struct { ID int64; Name *string `parquet:"name"`; Hobby *Hobby; Tags []string }
      type Hobby struct { Kind string; Level *int32; Inner Inner }
      type Inner struct { Z float64 } *)
  Definition ds0 : decls :=
    [ (Row, [ FD [[73;68]] t_int64 None;
              FD [[78;97;109;101]] (GPtr t_string) (Some [110;97;109;101]);
              FD [Hobby] (GPtr (GBase Hobby)) None;
              FD [[84;97;103;115]] (GSlice t_string) None ]);
      (Hobby, [ FD [[75;105;110;100]] t_string None;
                FD [[76;101;118;101;108]] (GPtr t_int32) None;
                FD [Inner] (GBase Inner) None ]);
      (Inner, [ FD [[90]] t_float64 None ]) ].

  Definition parsed0 : list pfield :=
    [ PLeaf [73;68] [73;68] Req PInt64;
      PLeaf [78;97;109;101] [110;97;109;101] Opt PString;
      PGroup Hobby Hobby Opt Hobby
        [ PLeaf [75;105;110;100] [75;105;110;100] Req PString;
          PLeaf [76;101;118;101;108] [76;101;118;101;108] Opt PInt32;
          PGroup Inner Inner Req Inner [ PLeaf [90] [90] Req PFloat64 ] ];
      PLeaf [84;97;103;115] [84;97;103;115] Rep PString ].

  Example parse0 : parse_root ds0 Row = Some parsed0.
  Proof. vm_compute. reflexivity. Qed.

  (** `_pad int32`; `anon struct{ X int32 }` (unexported name, anonymous struct
      with an exported inner field); `Skip struct{ Y int32 } `parquet:"-"``;
      `cb func(A int32)`; `Ch chan map[string][]*int32 `parquet:"-"``; the
      embedded unexported struct `inner` (not declared at all) *)
  Definition f_pad := FD [[95;112;97;100]] t_int32 None.
  Definition f_anon := FD [[97;110;111;110]] (GStruct [FD [[88]] t_int32 None]) None.
  Definition f_skip := FD [[83;107;105;112]] (GStruct [FD [[89]] t_int32 None]) (Some dash).
  Definition f_cb := FD [[99;98]] (GFunc [FD [[65]] t_int32 None]) None.
  Definition f_ch := FD [[67;104]] (GChan (GMap t_string (GSlice (GPtr t_int32)))) (Some dash).
  Definition f_emb := FD [] (GBase [105;110;110;101;114]) None.

  Example all_excluded :
    map excluded [f_pad; f_anon; f_skip; f_cb; f_ch; f_emb] = [true; true; true; true; true; true].
  Proof. vm_compute. reflexivity. Qed.

  Definition ins : list (bytes * nat * fdecl) :=
    [ (Row, 0%nat, f_pad); (Row, 2%nat, f_anon); (Row, 9%nat, f_skip); (Row, 1%nat, f_cb);
      (Hobby, 1%nat, f_anon); (Hobby, 0%nat, f_skip); (Hobby, 3%nat, f_cb); (Hobby, 2%nat, f_ch);
      (Inner, 0%nat, f_cb); (Inner, 1%nat, f_anon); (Inner, 1%nat, f_emb); (Inner, 0%nat, f_pad) ].

  Example inert_computed : parse_root (decorate_all ds0 ins) Row = Some parsed0.
  Proof. vm_compute. reflexivity. Qed.

  Example inert_by_theorem : parse_root (decorate_all ds0 ins) Row = parse_root ds0 Row.
  Proof. apply decorate_all_inert. repeat constructor. Qed.

  Example inert_each :
    map (fun f => parse_root (decorate ds0 Hobby 1 f) Row) [f_pad; f_anon; f_skip; f_cb]
    = [Some parsed0; Some parsed0; Some parsed0; Some parsed0].
  Proof. vm_compute. reflexivity. Qed.

  (** contrast: the same anonymous struct under an exported name and without
      the "-" tag is outside the documented grammar and is rejected *)
  Example exported_anon_rejected :
    let f := FD [[65;110;111;110]] (GStruct [FD [[88]] t_int32 None]) None in
    excluded f = false /\ parse_root (decorate ds0 Hobby 1 f) Row = None.
  Proof. vm_compute. split; reflexivity. Qed.

  (** type Row struct { Base; Hobby *Hobby; Tags []string }; type Base struct { ID int64; Name *string } *)
  Example embed_root : parse_root (embed ds0 Row Base 0 2) Row = Some parsed0.
  Proof. vm_compute. reflexivity. Qed.

  (** type Hobby struct { Kind string; Mixin }; type Mixin struct { Level *int32; Inner Inner } *)
  Example embed_nested : parse_root (embed ds0 Hobby Mixin 1 2) Row = Some parsed0.
  Proof. vm_compute. reflexivity. Qed.

  Example embed_twice :
    parse_root (embed (embed (embed ds0 Hobby Mixin 1 2) Row Base 0 3) Base [81] 1 1) Row = Some parsed0.
  Proof. vm_compute. reflexivity. Qed.

  Example embed_by_theorem : parse_root (embed ds0 Hobby Mixin 1 2) Row = parse_root ds0 Row.
  Proof.
    rewrite parse0. eapply embed_inline; [reflexivity|reflexivity|reflexivity|reflexivity|exact parse0].
  Qed.

  (** the innermost struct uses all the fuel of the embedded version: three
      declarations deep before, four after *)
  Example embed_deepest : parse_root (embed ds0 Inner Mixin 0 1) Row = Some parsed0.
  Proof. vm_compute. reflexivity. Qed.

  (** why the converse needs [unreferenced]: a field of the undeclared type E
      makes the original fail, while declaring E by embedding repairs it *)
  Example embed_converse_refuted :
    let ds := [ ([84], [FD [[65]] (GBase [69]) None]) ] in
    lookup ds [69] = None /\ parse_root ds [84] = None /\
    parse_root (embed ds [84] [69] 0 0) [84] = Some [PGroup [65] [65] Req [69] []].
  Proof. vm_compute. repeat split; reflexivity. Qed.
End Examples.

Print Assumptions decorate_inert.
Print Assumptions decorate_all_inert.
Print Assumptions embed_inline.
Print Assumptions embed_inline_conv.
Print Assumptions embed_inline_eq.
Print Assumptions children_fuel_enough.
Print Assumptions shape_eq.
Print Assumptions shape_eq_decorate.
Print Assumptions shape_eq_embed.
Print Assumptions shape_eq_embed_eq.
