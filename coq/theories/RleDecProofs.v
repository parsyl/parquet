(** * RleDecProofs: the library's level decoder ([Rle.rle_read], i.e. RLE.Read
    of internal/rle/rle.go) agrees with the specification decoder of [RleSpec]
    on every section that decoder accepts: it returns the same values and
    reports exactly the section's length as consumed.  No encoder is
    involved: the specification decoder also accepts non-minimal varints, so
    the proof follows [hybrid_decode_fuel] step by step against [rle_loop].
    That every well-formed hybrid stream is decoded ([rle_read_ok]) follows,
    since the specification decoder inverts the specification encoder. *)
From Coq Require Import List NArith ZArith Lia Bool Arith PeanoNat.
From Coq Require Import ZifyN ZifyNat ZifyBool.
From PQ Require Import Bytes Varint VarintProofs Bitpack BitpackProofs RleSpec RleSpecProofs Rle.
Import ListNotations.
Local Open Scope N_scope.

Definition run_small (r : run) : Prop :=
  match r with RRle c _ => c < 2 ^ 63 | RBp _ => True end.

Lemma length_pos_nonnil {A} (l : list A) : (0 < length l)%nat -> l <> [].
Proof. intros H ->. cbn in H. lia. Qed.

(** ** The two varint readers on the same bytes *)

Lemma uleb_go_agree_aux : forall bs shift acc h r,
  wf_bytes bs -> acc < 2 ^ shift ->
  uleb_dec_aux bs shift acc = Some (h, r) ->
  read_leb128_go bs shift (acc mod 2 ^ 64) = Some (h mod 2 ^ 64, r).
Proof.
  induction bs as [|b bs IH]; intros shift acc h r Hwf Hacc Hdec; [discriminate Hdec|].
  apply wf_bytes_cons in Hwf. destruct Hwf as [Hb Hwf]. unfold is_byte in Hb.
  cbn [uleb_dec_aux] in Hdec. cbn [read_leb128_go].
  rewrite (land_128_byte b Hb), land_127, N.shiftl_mul_pow2.
  rewrite <- lor_mod_pow2, lor_disjoint by exact Hacc.
  destruct (b <? 128).
  - injection Hdec as <- <-. reflexivity.
  - apply IH; [exact Hwf | | exact Hdec].
    rewrite pow2_shift7.
    pose proof (N.mod_lt b 128 ltac:(discriminate)) as Hm. clear Hdec Hb.
    remember (b mod 128) as m eqn:Em. remember (2 ^ shift) as p eqn:Ep. nia.
Qed.

Lemma uleb_go_agree bs h r :
  wf_bytes bs -> uleb_dec bs = Some (h, r) ->
  read_leb128_go bs 0 0 = Some (h mod 2 ^ 64, r).
Proof.
  intros Hwf Hdec. unfold uleb_dec in Hdec.
  pose proof (uleb_go_agree_aux bs 0 0 h r Hwf) as H.
  rewrite N.pow_0_r in H. change (0 mod 2 ^ 64) with 0 in H. apply H; [lia | exact Hdec].
Qed.

(** ** Bit-packed groups: the library's tables and the specification layout *)

Lemma unpack_spec_eq w g :
  In w widths -> length g = N.to_nat w -> wf_bytes g -> unpack w g = spec_unpack w g.
Proof.
  intros Hw Hl Hwf.
  assert (Hl8 : length (unpack w g) = 8%nat) by (rewrite unpack_length; apply unpack_table_length; exact Hw).
  pose proof (unpack_bounded w g Hw Hl Hwf) as Hb.
  pose proof (pack_unpack_eq w g Hw Hl Hwf) as Hpu.
  rewrite (pack_spec w _ Hw Hl8 Hb) in Hpu.
  rewrite <- Hpu at 2. symmetry. apply spec_unpack_pack; assumption.
Qed.

Lemma unpack_all_nil fuel w : unpack_all fuel w [] = [].
Proof. destruct fuel as [|f]; reflexivity. Qed.

Lemma unpack_all_step f w raw :
  raw <> [] ->
  unpack_all (S f) w raw =
  unpack w (firstn (N.to_nat w) raw) ++ unpack_all f w (skipn (N.to_nat w) raw).
Proof. intros H. destruct raw as [|b r]; [congruence | reflexivity]. Qed.

Lemma take_groups_unpack w : In w widths -> forall g r gs r',
  wf_bytes (firstn (g * N.to_nat w) r) -> take_groups w g r = Some (gs, r') ->
  forall fuel, (g * N.to_nat w < fuel)%nat ->
               unpack_all fuel w (firstn (g * N.to_nat w) r) = concat gs.
Proof.
  intros Hw. pose proof (widths_pos w Hw) as Hwp.
  induction g as [|g IH]; intros r gs r' Hwf Htg fuel Hf; cbn [take_groups] in Htg.
  - injection Htg as <- _. apply unpack_all_nil.
  - destruct (Nat.leb (N.to_nat w) (length r)) eqn:Ele; [|discriminate Htg].
    apply Nat.leb_le in Ele.
    destruct (take_groups w g (skipn (N.to_nat w) r)) as [[gs0 r0]|] eqn:E0; [|discriminate Htg].
    injection Htg as <- _. cbn [Nat.mul] in *.
    destruct fuel as [|fuel]; [lia|].
    rewrite unpack_all_step by (apply length_pos_nonnil; rewrite firstn_length; lia).
    rewrite firstn_firstn, Nat.min_l, <- firstn_skipn_comm by lia.
    rewrite (IH _ gs0 r0) by (lia || assumption || (rewrite firstn_skipn_comm; apply wf_bytes_skipn, Hwf)).
    cbn [concat]. f_equal.
    apply unpack_spec_eq; [exact Hw | apply firstn_length_le; exact Ele |].
    rewrite <- (Nat.min_l (N.to_nat w) (N.to_nat w + g * N.to_nat w)), <- firstn_firstn by lia.
    apply wf_bytes_firstn, Hwf.
Qed.

Lemma read_rle_run_agree w h r v r' :
  In w widths -> take_le (value_bytes w) r = Some (v, r') ->
  read_rle_run w h r = Ok (repeat v (N.to_nat (h / 2)), r').
Proof.
  intros Hw Ht. unfold read_rle_run. rewrite (widths_div w Hw).
  rewrite (widths_value_bytes w Hw) in Ht. unfold take_le in Ht.
  destruct r as [|b r0]; cbn [length Nat.leb] in Ht; [discriminate Ht|].
  cbn [firstn skipn le_dec] in Ht. injection Ht as <- <-.
  rewrite N.add_0_r. reflexivity.
Qed.

Lemma read_bp_nonempty w hdr bs :
  w <> 0 -> bs <> [] ->
  read_bp w hdr bs =
  let bc := N.to_nat (w * (hdr / 2 * 8) / 8) in
  Ok (unpack_all (S bc) w (firstn bc bs ++ repeat 0 (bc - length (firstn bc bs))),
      skipn bc bs).
Proof.
  intros Hw Hbs. unfold read_bp.
  destruct (w =? 0) eqn:E; [apply N.eqb_eq in E; congruence|].
  destruct bs as [|b r]; [congruence | reflexivity].
Qed.

(** only the bytes of the groups need be well formed, not what follows them *)
Lemma read_bp_agree w h r gs r' :
  In w widths -> wf_bytes (firstn (N.to_nat (h / 2) * N.to_nat w) r) ->
  h / 2 <> 0 ->
  take_groups w (N.to_nat (h / 2)) r = Some (gs, r') ->
  read_bp w h r = Ok (concat gs, r').
Proof.
  intros Hw Hwf Hg Htg. pose proof (widths_pos w Hw) as Hwp.
  destruct (take_groups_inv _ _ _ _ _ Htg) as (_ & _ & Hr & Hle).
  assert (Hbc : N.to_nat (w * (h / 2 * 8) / 8) = (N.to_nat (h / 2) * N.to_nat w)%nat).
  { rewrite N.mul_assoc, N.div_mul by discriminate. lia. }
  rewrite read_bp_nonempty; [|lia|apply length_pos_nonnil; nia].
  cbv zeta. rewrite Hbc.
  rewrite firstn_length_le by exact Hle. rewrite Nat.sub_diag. cbn [repeat]. rewrite app_nil_r.
  rewrite (take_groups_unpack w Hw _ _ _ _ Hwf Htg) by lia. rewrite <- Hr. reflexivity.
Qed.

Lemma read_run_agree w h r run r' :
  In w widths -> wf_bytes r -> take_run w h r = Some (run, r') ->
  (if N.even h then read_rle_run w h r else read_bp w h r) = Ok (run_values run, r').
Proof.
  intros Hw Hwf Ht. apply take_run_inv in Ht. destruct (N.even h).
  - destruct Ht as (v & Ht & -> & _). apply read_rle_run_agree; assumption.
  - destruct Ht as (gs & Ht & -> & Hg & Hlen). apply read_bp_agree; try assumption.
    apply wf_bytes_firstn, Hwf.
Qed.

(** the header fits the uint64 the library reads it into: an RLE count is
    below 2^63, a group count is bounded by the bytes that follow *)
Lemma take_run_header w h r run r' :
  1 <= w -> take_run w h r = Some (run, r') -> run_small run -> nlen r < 2 ^ 62 -> h < 2 ^ 64.
Proof.
  intros Hw Ht Hs H62. apply take_run_inv in Ht. destruct (N.even h).
  - destruct Ht as (v & _ & -> & _). cbn [run_small] in Hs. change (2 ^ 64) with (2 * 2 ^ 63). lia.
  - destruct Ht as (gs & _ & _ & _ & Hlen). change (2 ^ 64) with (4 * 2 ^ 62). nia.
Qed.

Lemma rle_loop_nil f w acc : rle_loop (S f) w [] acc = Ok acc.
Proof. reflexivity. Qed.

Lemma rle_loop_step f w bs acc hdr r :
  bs <> [] -> read_leb128_go bs 0 0 = Some (hdr, r) ->
  rle_loop (S f) w bs acc =
  match (if N.even hdr then read_rle_run w hdr r else read_bp w hdr r) with
  | Ok (vals, r') => rle_loop f w r' (acc ++ vals)
  | Err => Err
  | Panic => Panic
  end.
Proof.
  intros Hne Hh. destruct bs as [|b bs']; [congruence|].
  cbn [rle_loop]. rewrite Hh. reflexivity.
Qed.

Lemma rle_loop_agree w : In w widths -> forall f bs rs,
  wf_bytes bs -> nlen bs < 2 ^ 62 -> hybrid_decode_fuel f w bs = Some rs -> Forall run_small rs ->
  forall f' acc, (length bs < f')%nat -> rle_loop f' w bs acc = Ok (acc ++ runs_values rs).
Proof.
  intros Hw. pose proof (widths_pos w Hw) as Hwp.
  induction f as [|f IH]; intros bs rs Hwf H62 Hdec Hsmall f' acc Hfuel; [discriminate Hdec|].
  rewrite hybrid_decode_fuel_S in Hdec.
  destruct f' as [|f']; [lia|].
  destruct bs as [|b bs0] eqn:Ebs.
  { injection Hdec as <-. rewrite rle_loop_nil, app_nil_r. reflexivity. }
  rewrite <- Ebs in *. assert (Hne : bs <> []) by (rewrite Ebs; discriminate). clear Ebs b bs0.
  unfold decode_step in Hdec.
  destruct (uleb_dec bs) as [[h r]|] eqn:Eu; [|discriminate Hdec].
  destruct (take_run w h r) as [[run r']|] eqn:Et; [|discriminate Hdec].
  destruct (hybrid_decode_fuel f w r') as [rs'|] eqn:Er; [|discriminate Hdec].
  injection Hdec as <-. apply Forall_cons_iff in Hsmall. destruct Hsmall as [Hs1 Hs].
  destruct (uleb_dec_aux_local _ _ _ _ _ Eu) as (pre & Hpre & Hlr & _).
  assert (Hwr : wf_bytes r) by (rewrite Hpre in Hwf; apply wf_bytes_app in Hwf; apply Hwf).
  apply (f_equal (@length _)) in Hpre. rewrite app_length in Hpre.
  unfold nlen in H62.
  pose proof (uleb_go_agree bs h r Hwf Eu) as Hgo.
  rewrite N.mod_small in Hgo by (apply (take_run_header w h r run r'); assumption || (unfold nlen; lia)).
  rewrite (rle_loop_step f' w bs acc h r Hne Hgo), (read_run_agree w h r run r' Hw Hwr Et).
  destruct (take_run_rest _ _ _ _ _ Et) as [k ->].
  rewrite (IH _ rs' (wf_bytes_skipn _ _ Hwr)) by (assumption || (unfold nlen; rewrite ?skipn_length; lia)).
  rewrite runs_values_cons, app_assoc. reflexivity.
Qed.

(** ** The framed reader *)

(** [rle_read] on a stream that holds at least the announced number of
    bytes: the section is cut out, nothing is zero-filled, and the bytes after
    it do not matter. *)
Lemma rle_read_framed w body rest :
  nlen body < 2 ^ 31 ->
  rle_read w (le_enc 4 (nlen body) ++ body ++ rest) =
  match rle_loop (S (length body)) w body [] with
  | Ok vals => Ok (vals, (4 + length body)%nat)
  | Err => Err
  | Panic => Panic
  end.
Proof.
  intros Hlen. unfold rle_read.
  rewrite app_length, le_enc_length.
  destruct (Nat.ltb (4 + length (body ++ rest)) 4) eqn:E4; [apply Nat.ltb_lt in E4; lia|].
  rewrite (firstn_app_len 4) by apply le_enc_length.
  rewrite (skipn_app_len 4) by apply le_enc_length.
  rewrite le_dec_enc by (change (256 ^ N.of_nat 4) with (2 * 2 ^ 31); lia).
  destruct (2 ^ 31 <=? nlen body) eqn:E31; [apply N.leb_le in E31; lia|].
  unfold nlen. rewrite Nat2N.id.
  rewrite firstn_app_exact, Nat.sub_diag. cbn [repeat]. rewrite app_nil_r.
  rewrite (Nat.add_comm (length body) 4).
  destruct (body ++ rest) as [|x xs] eqn:Ebr; [|reflexivity].
  apply app_eq_nil in Ebr. destruct Ebr as [-> _]. reflexivity.
Qed.

Lemma rle_read_frame_indep w body rest :
  nlen body < 2 ^ 31 ->
  rle_read w (le_enc 4 (nlen body) ++ body ++ rest) = rle_read w (le_enc 4 (nlen body) ++ body).
Proof.
  intros Hlen. rewrite rle_read_framed by assumption.
  rewrite <- (app_nil_r body) at 4. rewrite rle_read_framed by assumption. reflexivity.
Qed.

(** Side conditions: length below 2^31 (the library reads it as an int32), RLE
    run counts below 2^63 (the library reads the run header into a uint64). *)
Theorem rle_read_decodes w body rs rest :
  In w widths -> wf_bytes body -> nlen body < 2 ^ 31 ->
  hybrid_decode w body = Some rs -> Forall run_small rs ->
  rle_read w (le_enc 4 (nlen body) ++ body ++ rest) = Ok (runs_values rs, (4 + length body)%nat).
Proof.
  intros Hw Hwf Hlen Hdec Hsmall. rewrite rle_read_framed by exact Hlen.
  rewrite (rle_loop_agree w Hw (S (length body)) body rs Hwf) with (acc := []); [reflexivity | | exact Hdec | exact Hsmall | lia].
  assert (2 ^ 31 <= 2 ^ 62) by (apply N.pow_le_mono_r; lia). lia.
Qed.

Theorem rle_read_ok w rs rest :
  In w widths -> Forall (wf_run w) rs -> Forall run_small rs ->
  nlen (runs_encode w rs) < 2 ^ 31 ->
  rle_read w (hybrid_encode w rs ++ rest) =
  Ok (runs_values rs, (4 + length (runs_encode w rs))%nat).
Proof.
  intros Hw Hwf Hs Hlen. unfold hybrid_encode. rewrite <- app_assoc.
  apply rle_read_decodes; auto using runs_encode_wf, hybrid_decode_encode.
Qed.

Print Assumptions rle_read_ok.
