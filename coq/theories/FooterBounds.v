(** * FooterBounds: the footer the writer produces is in the thrift codec's
    domain ([Meta.file_meta_ok]) and short enough for the 4-byte trailer
    whenever the *inputs and sizes* are in range.

    The file-level theorems carry the hypothesis
      [file_meta_ok (footer ...) = true /\ nlen (enc_file_meta (footer ...)) < 2^32],
    a condition on the writer's output; here both conjuncts are derived from
    conditions on the inputs. *)
From Coq Require Import List NArith ZArith Lia Bool Arith PeanoNat.
From Coq Require Import ZifyN ZifyNat ZifyBool.
From PQ Require Import Bytes Varint VarintProofs Schema Dremel DremelProofs MetaTypes Thrift ThriftProofs
     Meta MetaProofs Writer WriterProofs SchemaProofs PageProofs ReaderProofs ReaderProofs2.
From PQ Require ValidatorProofs.
Import ListNotations.
Local Open Scope N_scope.

Lemma p62 : 2 ^ 62 = 4611686018427387904.
Proof. reflexivity. Qed.

Lemma p63 : 2 ^ 63 = 9223372036854775808.
Proof. reflexivity. Qed.

Lemma i32_ok_of_N n : n < 2 ^ 31 -> i32_ok (Z.of_N n) = true.
Proof. rewrite pow31. intros H. unfold i32_ok, in_range. lia. Qed.

Lemma i64_ok_of_N n : n < 2 ^ 63 -> i64_ok (Z.of_N n) = true.
Proof. rewrite p63. intros H. unfold i64_ok, in_range. lia. Qed.

Lemma bin_ok_spec n : bin_ok n = true <-> wf_bytes n /\ nlen n < 2 ^ 31.
Proof.
  unfold bin_ok. rewrite andb_true_iff, wf_bytesb_spec, N.ltb_lt. unfold len_lim. rewrite pow31.
  reflexivity.
Qed.

Lemma list_ok_intro {A} (f : A -> bool) l :
  nlen l < 2 ^ 31 -> Forall (fun x => f x = true) l -> list_ok f l = true.
Proof.
  intros Hl Hf. unfold list_ok. apply andb_true_intro. split.
  - unfold len_lim. rewrite pow31 in Hl. lia.
  - apply forallb_forall. intros x Hx. rewrite Forall_forall in Hf. exact (Hf x Hx).
Qed.

Lemma codec_i32_ok c : In c [CODEC_UNCOMPRESSED; CODEC_SNAPPY; CODEC_GZIP] -> i32_ok c = true.
Proof. cbn [In]. intros [<-|[<-|[<-|[]]]]; reflexivity. Qed.

Lemma prim_type_ok p : i32_ok (prim_type p) = true.
Proof. destruct p; reflexivity. Qed.

Lemma prim_converted_ok p : opt_ok i32_ok (prim_converted p) = true.
Proof. destruct p; reflexivity. Qed.

Lemma rept_code_ok r : i32_ok (rept_code r) = true.
Proof. destruct r; reflexivity. Qed.

Lemma nlen_cons {A} (x : A) l : nlen (x :: l) = 1 + nlen l.
Proof. unfold nlen. cbn [length]. lia. Qed.

Lemma nlen_nil {A} : nlen (@nil A) = 0.
Proof. reflexivity. Qed.

Lemma sumN_map_In {A} (f : A -> N) x l : In x l -> f x <= sumN (map f l).
Proof.
  induction l as [|y l IH]; intros Hin; [destruct Hin|].
  cbn [map sumN]. destruct Hin as [->|Hin]; [lia|]. specialize (IH Hin). lia.
Qed.

Lemma sumN_map_le {A} (f g : A -> N) l : (forall x, f x <= g x) -> sumN (map f l) <= sumN (map g l).
Proof. intros H. induction l as [|x l IH]; cbn [map sumN]; [lia|]. specialize (H x). lia. Qed.

Lemma sumN_le_const {A} (f : A -> N) k l :
  Forall (fun x => f x <= k) l -> sumN (map f l) <= k * nlen l.
Proof.
  induction 1 as [|x l Hx Hl IH]; [cbn [map sumN]; lia|].
  cbn [map sumN]. rewrite nlen_cons. lia.
Qed.

Fixpoint ty_names_allb (ok : bytes -> bool) (t : ty) : bool :=
  match t with
  | TLeaf _ => true
  | TGroup fs => forallb (fun f : field => ok (fst (fst f)) && ty_names_allb ok (snd f)) fs
  end.

Definition shape_names_ok (fs : list field) : Prop := ty_names_allb bin_ok (TGroup fs) = true.

Definition shape_names_le (M : N) (fs : list field) : Prop :=
  ty_names_allb (fun n => nlen n <=? M) (TGroup fs) = true.

Definition path_all (ok : bytes -> bool) (p : list bytes) : Prop := Forall (fun n => ok n = true) p.

Definition path_ok (p : list bytes) : Prop := path_all bin_ok p.

Lemma ty_names_allb_cons ok n rp t' fs :
  ty_names_allb ok (TGroup ((n, rp, t') :: fs)) =
  ok n && ty_names_allb ok t' && ty_names_allb ok (TGroup fs).
Proof. reflexivity. Qed.

Lemma columns_ty_path_all ok t : forall pth rs,
  path_all ok pth -> ty_names_allb ok t = true ->
  Forall (fun c => path_all ok (c_path c)) (columns_ty pth rs t).
Proof.
  induction t as [p|fs IH] using ty_ind'; intros pth rs Hp Hn.
  - rewrite columns_ty_leaf. constructor; [exact Hp|constructor].
  - revert Hn. induction IH as [|[[n rp] t'] fs Ht' Hfs IHfs]; intros Hn.
    + rewrite columns_ty_nil. constructor.
    + rewrite ty_names_allb_cons in Hn. apply andb_prop in Hn. destruct Hn as [Hn Hn3].
      apply andb_prop in Hn. destruct Hn as [Hn1 Hn2].
      rewrite columns_ty_cons. apply Forall_app. split.
      * cbn [snd] in Ht'. apply Ht'; [|exact Hn2].
        apply Forall_app. split; [exact Hp|]. constructor; [exact Hn1|constructor].
      * apply IHfs. exact Hn3.
Qed.

Lemma columns_path_all ok fs :
  ty_names_allb ok (TGroup fs) = true -> Forall (fun c => path_all ok (c_path c)) (columns fs).
Proof. intros H. unfold columns. apply columns_ty_path_all; [constructor|exact H]. Qed.

Lemma columns_path_ok fs :
  shape_names_ok fs -> Forall (fun c => path_ok (c_path c)) (columns fs).
Proof. apply columns_path_all. Qed.

Lemma nth_all ok p : ok [] = true -> forall i, path_all ok p -> ok (nth i p []) = true.
Proof.
  intros Hd. induction p as [|n p IH]; intros i Hp.
  - destruct i; exact Hd.
  - destruct i as [|i]; cbn [nth]; [exact (Forall_inv Hp)|]. apply IH. exact (Forall_inv_tail Hp).
Qed.

Lemma last_all ok p : ok [] = true -> path_all ok p -> ok (last p []) = true.
Proof.
  intros Hd. induction p as [|n p IH]; intros Hp; [exact Hd|].
  destruct p as [|m p]; [exact (Forall_inv Hp)|].
  change (last (n :: m :: p) []) with (last (m :: p) []). apply IH. exact (Forall_inv_tail Hp).
Qed.

(** an upper bound of the number of schema elements below the root: a column
    contributes its leaf and at most one group per proper prefix of its path *)
Definition path_weight (cols : list col) : N := sumN (map (fun c => 1 + nlen (c_path c)) cols).

Definition schema_bound (cols : list col) : N := 1 + path_weight cols.

Lemma path_weight_cons c cols : path_weight (c :: cols) = 1 + nlen (c_path c) + path_weight cols.
Proof. reflexivity. Qed.

Lemma path_weight_len cols : nlen cols <= path_weight cols.
Proof.
  induction cols as [|c cols IH]; [unfold path_weight; cbn [map sumN]; rewrite nlen_nil; lia|].
  rewrite path_weight_cons, nlen_cons. lia.
Qed.

Lemma path_weight_depth cols c : In c cols -> nlen (c_path c) < path_weight cols.
Proof.
  induction cols as [|c0 cols IH]; intros Hin; [destruct Hin|].
  rewrite path_weight_cons. destruct Hin as [->|Hin]; [lia|]. specialize (IH Hin). lia.
Qed.

Section EmitInv.

Variable paths : list (list bytes).
Variable Q : col -> Prop.
Variable P : schema_element -> Prop.
Hypothesis HPg : forall c i, Q c -> P (gelem paths (c_path c) (c_reps c) i).

Lemma gfold_inv c : Q c -> forall is out seen,
  Forall P out ->
  Forall P (fst (fold_left (gstep paths c) is (out, seen))) /\
  (length (fst (fold_left (gstep paths c) is (out, seen))) <= length out + length is)%nat.
Proof.
  intros Hq. induction is as [|i is IH]; intros out seen Hout.
  - cbn [fold_left fst length]. split; [exact Hout|lia].
  - cbn [fold_left gstep]. destruct (existsb _ seen) eqn:E.
    + destruct (IH out seen Hout) as [H1 H2]. split; [exact H1|cbn [length]; lia].
    + match goal with |- context [fold_left _ is (?o, ?s)] => destruct (IH o s) as [H1 H2] end.
      { apply Forall_app. split; [exact Hout|]. constructor; [apply HPg; exact Hq|constructor]. }
      split; [exact H1|]. rewrite app_length in H2. cbn [length] in H2 |- *. lia.
Qed.

Lemma group_elements_inv c seen : Q c ->
  Forall P (fst (group_elements paths c seen)) /\
  (length (fst (group_elements paths c seen)) <= length (c_path c) - 1)%nat.
Proof.
  intros Hq. rewrite group_elements_eq.
  destruct (gfold_inv c Hq (seq 0 (length (c_path c) - 1)) [] seen (Forall_nil _)) as [H1 H2].
  split; [exact H1|]. rewrite seq_length in H2. cbn [length] in H2. lia.
Qed.

Hypothesis HPl : forall c, Q c -> P (leaf_element c).

Lemma emit_inv : forall cols out seen,
  Forall Q cols -> Forall P out ->
  Forall P (fst (fold_left (step paths) cols (out, seen))) /\
  nlen (fst (fold_left (step paths) cols (out, seen))) <= nlen out + path_weight cols.
Proof.
  induction cols as [|c cols IH]; intros out seen Hc Hout.
  - cbn [fold_left fst]. split; [exact Hout|]. unfold path_weight. cbn [map sumN]. lia.
  - pose proof (Forall_inv Hc) as Hc1. pose proof (Forall_inv_tail Hc) as Hc'.
    cbn [fold_left step]. pose proof (group_elements_inv c seen Hc1) as G. revert G.
    destruct (group_elements paths c seen) as [gs seen']. cbn [fst]. intros [G1 G2].
    destruct (IH (out ++ gs ++ [leaf_element c]) seen' Hc') as [H1 H2].
    { apply Forall_app. split; [exact Hout|]. apply Forall_app. split; [exact G1|].
      constructor; [apply HPl; exact Hc1|constructor]. }
    split; [exact H1|]. rewrite path_weight_cons. rewrite !nlen_app, nlen_cons in H2.
    unfold nlen in *. cbn [length] in H2. lia.
Qed.

End EmitInv.

Lemma schema_of_inv (Q : col -> Prop) (P : schema_element -> Prop) cols :
  (forall c i, Q c -> P (gelem (map c_path cols) (c_path c) (c_reps c) i)) ->
  (forall c, Q c -> P (leaf_element c)) ->
  P (root_elem (map c_path cols)) ->
  Forall Q cols ->
  Forall P (schema_of cols) /\ nlen (schema_of cols) <= schema_bound cols.
Proof.
  intros HPg HPl HPr Hc. rewrite schema_of_eq. unfold emit.
  destruct (emit_inv (map c_path cols) Q P HPg HPl cols [] [] Hc (Forall_nil _)) as [H1 H2].
  split; [constructor; [exact HPr|exact H1]|].
  rewrite nlen_cons. unfold schema_bound. rewrite nlen_nil in H2. lia.
Qed.

(** ** The schema half *)

Lemma count_children_le pre paths : forall seen, count_children pre paths seen <= nlen paths.
Proof.
  induction paths as [|p r IH]; intros seen; [cbn [count_children]; lia|].
  rewrite count_children_cons, nlen_cons.
  destruct (strict_ext pre p) eqn:E1.
  - destruct (existsb _ seen) eqn:E2.
    + specialize (IH seen). lia.
    + specialize (IH (firstn (S (length pre)) p :: seen)). lia.
  - specialize (IH seen). lia.
Qed.

Definition elem_ok (e : schema_element) : Prop := schema_element_ok e = true.

Lemma leaf_element_ok c : path_ok (c_path c) -> elem_ok (leaf_element c).
Proof.
  intros Hp. unfold elem_ok, schema_element_ok, leaf_element.
  cbn [se_type se_type_length se_repetition se_name se_num_children se_converted se_scale
       se_precision se_field_id opt_ok].
  rewrite (last_all bin_ok _ eq_refl Hp), prim_type_ok, rept_code_ok, prim_converted_ok. reflexivity.
Qed.

Lemma gelem_ok paths path reps i :
  nlen paths < 2 ^ 31 -> path_ok path -> elem_ok (gelem paths path reps i).
Proof.
  intros Hn Hp. unfold elem_ok, schema_element_ok, gelem.
  cbn [se_type se_type_length se_repetition se_name se_num_children se_converted se_scale
       se_precision se_field_id opt_ok].
  rewrite (nth_all bin_ok _ eq_refl i Hp), rept_code_ok, i32_ok_of_N; [reflexivity|].
  pose proof (count_children_le (firstn (S i) path) paths []) as Hle. lia.
Qed.

Lemma root_elem_ok paths : nlen paths < 2 ^ 31 -> elem_ok (root_elem paths).
Proof.
  intros Hn. unfold elem_ok, schema_element_ok, root_elem.
  cbn [se_type se_type_length se_repetition se_name se_num_children se_converted se_scale
       se_precision se_field_id opt_ok].
  rewrite i32_ok_of_N; [reflexivity|].
  pose proof (count_children_le [] paths []) as Hle. lia.
Qed.

Theorem schema_of_ok cols :
  Forall (fun c => path_ok (c_path c)) cols -> nlen cols < 2 ^ 31 ->
  Forall elem_ok (schema_of cols) /\ nlen (schema_of cols) <= schema_bound cols.
Proof.
  intros Hc Hn.
  assert (Hp : nlen (map c_path cols) < 2 ^ 31) by (unfold nlen in *; rewrite map_length; exact Hn).
  apply (schema_of_inv (fun c => path_ok (c_path c))); [| |apply root_elem_ok; exact Hp|exact Hc].
  - intros c i Hq. apply gelem_ok; assumption.
  - intros c Hq. apply leaf_element_ok. exact Hq.
Qed.

Theorem schema_ok_written fs :
  shape_names_ok fs -> schema_bound (columns fs) < 2 ^ 31 ->
  list_ok schema_element_ok (schema_of (columns fs)) = true.
Proof.
  intros Hnm Hb.
  assert (Hn : nlen (columns fs) < 2 ^ 31).
  { pose proof (path_weight_len (columns fs)) as Hl. unfold schema_bound in Hb. lia. }
  destruct (schema_of_ok (columns fs) (columns_path_ok fs Hnm) Hn) as [H1 H2].
  apply list_ok_intro; [lia|exact H1].
Qed.

(** ** The row-group half *)

Definition acc_ok (ca : chunk_acc) : Prop :=
  ca_num_values ca < 2 ^ 63 /\ ca_uncompressed ca < 2 ^ 63 /\
  path_ok (c_path (ca_col ca)) /\ nlen (c_path (ca_col ca)) < 2 ^ 31.

Lemma chunk_meta_ok codec pos ca :
  i32_ok codec = true -> pos < 2 ^ 63 -> ca_compressed ca < 2 ^ 63 -> acc_ok ca ->
  column_chunk_ok (chunk_meta codec pos ca) = true.
Proof.
  intros Hcodec Hpos Hcomp (Hnv & Hunc & Hpth & Hdepth).
  unfold column_chunk_ok, chunk_meta.
  cbn [cc_file_path cc_file_offset cc_meta cc_offset_index_offset cc_offset_index_length
       cc_column_index_offset cc_column_index_length opt_ok].
  unfold column_meta_ok.
  cbn [cm_type cm_encodings cm_path cm_codec cm_num_values cm_total_uncompressed cm_total_compressed
       cm_key_value cm_data_page_offset cm_index_page_offset cm_dictionary_page_offset cm_statistics
       cm_encoding_stats opt_ok].
  rewrite (i64_ok_of_N pos Hpos), (i64_ok_of_N _ Hnv), (i64_ok_of_N _ Hunc), (i64_ok_of_N _ Hcomp).
  rewrite prim_type_ok, Hcodec, (list_ok_intro bin_ok _ Hdepth Hpth). reflexivity.
Qed.

Lemma chunks_meta_ok codec : i32_ok codec = true -> forall cas pos,
  Forall acc_ok cas -> pos + sumN (map ca_compressed cas) < 2 ^ 63 ->
  Forall (fun cc => column_chunk_ok cc = true) (fst (chunks_meta codec pos cas)).
Proof.
  intros Hcodec. induction cas as [|ca cas IH]; intros pos Hcas Hlim; [constructor|].
  rewrite chunks_meta_cons. cbn [fst map sumN] in *. constructor.
  - apply chunk_meta_ok; [exact Hcodec|lia|lia|exact (Forall_inv Hcas)].
  - apply IH; [exact (Forall_inv_tail Hcas)|lia].
Qed.

Definition rg_acc_ok (rg : rg_acc) : Prop :=
  Forall acc_ok (ra_chunks rg) /\ nlen (ra_chunks rg) < 2 ^ 31 /\ ra_rows rg < 2 ^ 63.

Lemma row_groups_meta_ok codec : i32_ok codec = true -> forall rgs pos,
  Forall rg_acc_ok rgs -> pos + sumN (map rg_bytes rgs) < 2 ^ 63 ->
  Forall (fun rg => row_group_ok rg = true) (row_groups_meta codec pos rgs).
Proof.
  intros Hcodec. induction rgs as [|rg rgs IH]; intros pos Hrgs Hlim; [constructor|].
  pose proof (Forall_inv Hrgs) as (Hcas & Hncas & Hrows).
  rewrite row_groups_meta_cons. cbn [map sumN] in Hlim. constructor.
  - unfold row_group_ok. cbn [rg_columns rg_total_byte_size rg_num_rows].
    rewrite (i64_ok_of_N _ Hrows), (i64_ok_of_N (rg_bytes rg)) by lia.
    rewrite list_ok_intro; [reflexivity| |apply chunks_meta_ok; [exact Hcodec|exact Hcas|]].
    + unfold nlen in *. rewrite chunks_meta_length. exact Hncas.
    + fold (rg_bytes rg). lia.
  - apply IH; [exact (Forall_inv_tail Hrgs)|lia].
Qed.

Theorem footer_meta_ok cfg rgs :
  i32_ok (cfg_codec cfg) = true ->
  list_ok schema_element_ok (schema_of (columns (cfg_fields cfg))) = true ->
  Forall rg_acc_ok rgs -> nlen rgs < 2 ^ 31 ->
  4 + sumN (map rg_bytes rgs) < 2 ^ 63 ->
  sumN (map ra_rows rgs) < 2 ^ 63 ->
  file_meta_ok (footer_meta cfg rgs) = true.
Proof.
  intros Hcodec Hschema Hrgs Hn Hbytes Hrows.
  unfold file_meta_ok, footer_meta.
  cbn [fm_version fm_schema fm_num_rows fm_row_groups fm_key_value fm_created_by opt_ok].
  rewrite Hschema, (i64_ok_of_N _ Hrows).
  rewrite list_ok_intro; [reflexivity| |apply row_groups_meta_ok; assumption].
  unfold nlen in *. rewrite row_groups_meta_length. exact Hn.
Qed.

(** ** The length of the encoded footer *)

(** an upper bound of the compact-protocol encoding of a well-formed value:
    varints of i16/i32/i64 take at most 3/5/10 bytes, a list header at most 6,
    a field header at most 4 *)
Fixpoint tsize (v : tval) : N :=
  match v with
  | TBool _ => 1
  | TI8 _ => 1
  | TI16 _ => 3
  | TI32 _ => 5
  | TI64 _ => 10
  | TDouble _ => 8
  | TBin bs => 5 + nlen bs
  | TList _ vs => 6 + sumN (map tsize vs)
  | TStruct fs => 1 + sumN (map (fun p => 4 + tsize (snd p)) fs)
  end.

Lemma uleb_nlen n k : n < 128 * 2 ^ (7 * N.of_nat k) -> nlen (uleb_enc n) <= N.of_nat (S k).
Proof.
  intros H. unfold nlen. pose proof (uleb_enc_bound n k H). lia.
Qed.

Lemma uleb_nlen5 n : n < 34359738368 -> nlen (uleb_enc n) <= 5.
Proof. intros H. exact (uleb_nlen n 4 H). Qed.

Lemma zz_nlen z lim k :
  zigzag z < lim -> (lim <=? 128 * 2 ^ (7 * N.of_nat k)) = true ->
  nlen (uleb_enc (zigzag z)) <= N.of_nat (S k).
Proof. intros Hz Hl. apply uleb_nlen. lia. Qed.

Lemma fhdr_nlen last id ty : id <=? max_field_id = true -> nlen (fhdr last id ty) <= 4.
Proof.
  intros H. unfold max_field_id in H. unfold fhdr. destruct (_ && _).
  - rewrite nlen_cons, nlen_nil. lia.
  - rewrite nlen_cons. pose proof (zz_nlen (Z.of_N id) 2097152 2) as Hu.
    assert (Hz : zigzag (Z.of_N id) < 2097152).
    { unfold zigzag. destruct (Z.of_N id <? 0)%Z eqn:E; lia. }
    specialize (Hu Hz eq_refl). lia.
Qed.

Lemma lhdr_nlen elt n : n < len_lim -> nlen (lhdr elt n) <= 6.
Proof.
  unfold len_lim. intros H. unfold lhdr. destruct (n <=? 14).
  - rewrite nlen_cons, nlen_nil. lia.
  - rewrite nlen_cons. pose proof (uleb_nlen5 n) as Hu. lia.
Qed.

Lemma tenc_fval_size x :
  (wf_tval x = true -> nlen (tenc_val x) <= tsize x) ->
  wf_tval x = true -> nlen (tenc_fval x) <= tsize x.
Proof.
  intros H Hw. destruct x as [b|z|z|z|z|bits|bs|elt vs|fs]; try exact (H Hw).
  cbn [tenc_fval tsize]. rewrite nlen_nil. lia.
Qed.

Lemma tenc_val_size v : wf_tval v = true -> nlen (tenc_val v) <= tsize v.
Proof.
  induction v as [b|z|z|z|z|bits|bs|elt vs IH|fs IH] using tval_ind'; intros Hwf.
  - cbn [tenc_val tsize]. rewrite nlen_cons, nlen_nil. lia.
  - cbn [tenc_val tsize]. rewrite nlen_cons, nlen_nil. lia.
  - exact (zz_nlen z _ 2 (zigzag_i16 z Hwf) eq_refl).
  - exact (zz_nlen z _ 4 (zigzag_i32 z Hwf) eq_refl).
  - exact (zz_nlen z _ 9 (zigzag_i64 z Hwf) eq_refl).
  - cbn [tenc_val tsize]. unfold nlen. rewrite le_enc_length. lia.
  - cbn [tenc_val tsize wf_tval] in Hwf |- *. unfold bin_ok in Hwf.
    apply andb_prop in Hwf. destruct Hwf as [_ Hl]. unfold len_lim in Hl.
    rewrite nlen_app. pose proof (uleb_nlen5 (nlen bs)) as Hu. lia.
  - destruct (wf_tval_list_inv _ _ Hwf) as (_ & Hn & Hall). apply N.ltb_lt in Hn.
    rewrite tenc_val_list, nlen_app. cbn [tsize].
    pose proof (lhdr_nlen elt (nlen vs) Hn) as Hh.
    assert (He : nlen (tenc_elems vs) <= sumN (map tsize vs)).
    { clear Hwf Hn Hh. induction IH as [|x r Hx Hr IHr]; [cbn [map sumN]; unfold tenc_elems; cbn [flat_map]; rewrite nlen_nil; lia|].
      cbn [forallb] in Hall. rewrite !andb_true_iff in Hall. destruct Hall as [[_ Hx1] Hall].
      rewrite tenc_elems_cons, nlen_app. cbn [map sumN].
      specialize (Hx Hx1). specialize (IHr Hall). lia. }
    lia.
  - rewrite wf_tval_struct in Hwf. rewrite tenc_val_struct. cbn [tsize]. revert Hwf.
    enough (Hg : forall last, wf_fields_from last fs = true ->
                 nlen (tenc_fields last fs) <= 1 + sumN (map (fun p => 4 + tsize (snd p)) fs))
      by apply Hg.
    induction IH as [|[id x] r Hx Hr IHr]; intros last Hwf.
    + cbn [tenc_fields map sumN]. rewrite nlen_cons, nlen_nil. lia.
    + cbn [wf_fields_from] in Hwf. rewrite !andb_true_iff in Hwf. destruct Hwf as [[[_ Hid] Hwx] Hwr].
      cbn [tenc_fields map sumN snd]. rewrite !nlen_app. cbn [snd] in Hx.
      pose proof (fhdr_nlen last id (ctype x) Hid) as Hf.
      pose proof (tenc_fval_size x Hx Hwx) as Hv. specialize (IHr id Hwr). lia.
Qed.

Definition osz (o : option tval) : N := match o with Some v => 4 + tsize v | None => 0 end.

Lemma tsize_struct_mk l : tsize (TStruct (mk_fields l)) = 1 + sumN (map (fun p => osz (snd p)) l).
Proof.
  cbn [tsize]. f_equal.
  induction l as [|[id [v|]] l IH]; cbn [mk_fields map sumN snd osz]; lia.
Qed.

Lemma osz_i32 o : osz (option_map TI32 o) <= 9.
Proof. destruct o as [z|]; cbn [option_map osz tsize]; lia. Qed.

(** 82 = 1 (stop byte) + 8 optional i32 fields of 4 + 5 each + 4 + 5 for the name *)
Lemma schema_element_size s :
  tsize (TStruct (schema_element_to_fields s)) <= 82 + nlen (se_name s).
Proof.
  unfold schema_element_to_fields. rewrite tsize_struct_mk. cbn [map sumN snd t_bin osz tsize].
  pose proof (osz_i32 (se_type s)) as H1. pose proof (osz_i32 (se_type_length s)) as H2.
  pose proof (osz_i32 (se_repetition s)) as H3. pose proof (osz_i32 (se_num_children s)) as H5.
  pose proof (osz_i32 (se_converted s)) as H6. pose proof (osz_i32 (se_scale s)) as H7.
  pose proof (osz_i32 (se_precision s)) as H8. pose proof (osz_i32 (se_field_id s)) as H9.
  lia.
Qed.

(** 128 rounds up 119 = 1 + 14 (file_offset) + 4 + [1 + 2 * 9 + 15 (encodings)
    + 10 (path list) + 4 * 14], the entry without names *)
Definition chunk_cost (c : col) : N := 128 + sumN (map (fun n : bytes => 5 + nlen n) (c_path c)).

Lemma chunk_meta_size codec pos ca :
  tsize (TStruct (column_chunk_to_fields (chunk_meta codec pos ca))) <= chunk_cost (ca_col ca).
Proof.
  unfold column_chunk_to_fields, chunk_meta, column_meta_to_fields.
  rewrite tsize_struct_mk.
  cbn [cc_file_path cc_file_offset cc_meta cc_offset_index_offset cc_offset_index_length
       cc_column_index_offset cc_column_index_length map sumN snd option_map osz].
  rewrite tsize_struct_mk.
  cbn [cm_type cm_encodings cm_path cm_codec cm_num_values cm_total_uncompressed cm_total_compressed
       cm_key_value cm_data_page_offset cm_index_page_offset cm_dictionary_page_offset cm_statistics
       cm_encoding_stats map sumN snd option_map osz t_i64 t_i32 t_list tsize].
  rewrite map_map. cbn [tsize]. unfold chunk_cost. lia.
Qed.

Lemma chunks_meta_size codec : forall cas pos,
  sumN (map (fun cc => tsize (TStruct (column_chunk_to_fields cc))) (fst (chunks_meta codec pos cas))) <=
  sumN (map (fun ca => chunk_cost (ca_col ca)) cas).
Proof.
  induction cas as [|ca cas IH]; intros pos; [cbn [chunks_meta fst map sumN]; lia|].
  rewrite chunks_meta_cons. cbn [fst map sumN].
  pose proof (chunk_meta_size codec pos ca). specialize (IH (pos + ca_compressed ca)). lia.
Qed.

(** 39 = 1 + 10 (field and list header of the chunks) + 2 * 14 (total_byte_size, num_rows) *)
Definition rg_cost (rg : rg_acc) : N := 39 + sumN (map (fun ca => chunk_cost (ca_col ca)) (ra_chunks rg)).

Lemma row_group_size r :
  tsize (TStruct (row_group_to_fields r)) =
  39 + sumN (map tsize (map (fun c => TStruct (column_chunk_to_fields c)) (rg_columns r))).
Proof.
  unfold row_group_to_fields. rewrite tsize_struct_mk. cbn [map sumN snd osz t_i64 t_list tsize]. lia.
Qed.

Lemma row_groups_meta_size codec : forall rgs pos,
  sumN (map (fun r => tsize (TStruct (row_group_to_fields r))) (row_groups_meta codec pos rgs)) <=
  sumN (map rg_cost rgs).
Proof.
  induction rgs as [|rg rgs IH]; intros pos; [cbn [row_groups_meta map sumN]; lia|].
  rewrite row_groups_meta_cons. cbn [map sumN]. rewrite row_group_size, map_map. cbn [rg_columns].
  specialize (IH (pos + rg_bytes rg)). pose proof (chunks_meta_size codec (ra_chunks rg) pos) as Hc.
  unfold rg_cost at 1. lia.
Qed.

(** 44 = 1 + 9 (version) + 10 (schema list) + 14 (num_rows) + 10 (row-group list) *)
Definition footer_cost (cfg : config) (rgs : list rg_acc) : N :=
  44 + sumN (map (fun s => 82 + nlen (se_name s)) (schema_of (columns (cfg_fields cfg))))
  + sumN (map rg_cost rgs).

Theorem footer_len_le cfg rgs :
  file_meta_ok (footer_meta cfg rgs) = true ->
  nlen (enc_file_meta (footer_meta cfg rgs)) <= footer_cost cfg rgs.
Proof.
  intros Hok. unfold enc_file_meta, tenc_struct. rewrite <- tenc_val_struct.
  etransitivity; [apply tenc_val_size, wf_struct, file_meta_wf, Hok|].
  unfold file_meta_to_fields, footer_meta.
  cbn [fm_version fm_schema fm_num_rows fm_row_groups fm_key_value fm_created_by].
  rewrite tsize_struct_mk. cbn [map sumN snd option_map osz t_i64 t_i32 t_list tsize]. rewrite !map_map.
  pose proof (row_groups_meta_size (cfg_codec cfg) rgs 4) as Hr.
  pose proof (sumN_map_le _ _ (schema_of (columns (cfg_fields cfg))) schema_element_size) as Hs.
  unfold footer_cost. lia.
Qed.

(** [4 <= M]: the root element's name has 4 bytes *)
Lemma schema_names_le M cols :
  4 <= M -> Forall (fun c => path_all (fun n => nlen n <=? M) (c_path c)) cols ->
  Forall (fun s => 82 + nlen (se_name s) <= 82 + M) (schema_of cols).
Proof.
  intros HM Hc.
  assert (Hd : (nlen (@nil N) <=? M) = true) by (rewrite nlen_nil; lia).
  apply (schema_of_inv (fun c => path_all (fun n => nlen n <=? M) (c_path c))); [| | |exact Hc].
  - intros c i Hq. unfold gelem. cbn [se_name].
    pose proof (nth_all (fun n => nlen n <=? M) (c_path c) Hd i Hq) as Hn. cbv beta in Hn. lia.
  - intros c Hq. unfold leaf_element. cbn [se_name].
    pose proof (last_all (fun n => nlen n <=? M) (c_path c) Hd Hq) as Hn. cbv beta in Hn. lia.
  - unfold root_elem. cbn [se_name]. change (nlen root_name) with 4. lia.
Qed.

Lemma chunk_cost_le M c :
  path_all (fun n => nlen n <=? M) (c_path c) -> chunk_cost c <= 128 + (5 + M) * nlen (c_path c).
Proof.
  intros Hp. unfold chunk_cost.
  pose proof (sumN_le_const (fun n => 5 + nlen n) (5 + M) (c_path c)) as Hs.
  assert (Hf : Forall (fun x => 5 + nlen x <= 5 + M) (c_path c)).
  { eapply Forall_impl; [|exact Hp]. cbv beta. intros n Hn. lia. }
  specialize (Hs Hf). apply N.add_le_mono_l. exact Hs.
Qed.

(** 133 = 128 + 5: [path_weight] counts 1 + the length of the path, and the
    128 of [chunk_cost] is paid once per column *)
Lemma cols_cost_le M cols :
  Forall (fun c => path_all (fun n => nlen n <=? M) (c_path c)) cols ->
  sumN (map chunk_cost cols) <= (133 + M) * path_weight cols.
Proof.
  induction 1 as [|c cols Hc Hcols IH]; [cbn [map sumN]; lia|].
  cbn [map sumN]. rewrite path_weight_cons. pose proof (chunk_cost_le M c Hc) as Hcc. lia.
Qed.

(** 64 is above the 44 of [footer_cost] and the 39 of [rg_cost], 133 above the
    82 of a schema element ([footer_bound_arith]) *)
Definition footer_len_bound (M : N) (cols : list col) (nb : N) : N :=
  (1 + nb) * (64 + (133 + M) * schema_bound cols).

Section WithCodec.

Variable compress : Z -> bytes -> bytes.

Definition data_section (cfg : config) (bs : list (list value)) : bytes :=
  concat (map (fun b => concat (fst (write_batch compress cfg b))) bs).

Lemma written_bytes cfg bs :
  sumN (map rg_bytes (ValidatorProofs.batch_rgs compress cfg bs)) = nlen (data_section cfg bs).
Proof.
  unfold ValidatorProofs.batch_rgs, data_section. rewrite <- sumN_nlen_concat, !map_map.
  f_equal. apply map_ext. intros b. symmetry. apply batch_len_rg_bytes.
Qed.

Lemma written_rows cfg bs : sumN (map ra_rows (ValidatorProofs.batch_rgs compress cfg bs)) = nlen (concat bs).
Proof. unfold ValidatorProofs.batch_rgs. rewrite map_map. apply (sumN_nlen_concat bs). Qed.

Lemma ra_chunks_written cfg b :
  ra_chunks (snd (write_batch compress cfg b)) =
  map (fun ic : nat * col => chunk_of_pages (snd ic) (column_pages compress cfg (fst ic) (snd ic) b))
      (index_from 0 (columns (cfg_fields cfg))).
Proof. rewrite write_batch_chunks. unfold per_col. rewrite map_map. reflexivity. Qed.

(** the per-chunk totals that are not bounded by the length of the data section *)
Definition chunk_totals_ok (cfg : config) (bs : list (list value)) : Prop :=
  Forall (fun b => Forall (fun ca => ca_num_values ca < 2 ^ 63 /\ ca_uncompressed ca < 2 ^ 63)
                          (ra_chunks (snd (write_batch compress cfg b)))) bs.

Lemma written_rg_acc_ok cfg b :
  Forall (fun c => path_ok (c_path c)) (columns (cfg_fields cfg)) ->
  schema_bound (columns (cfg_fields cfg)) < 2 ^ 31 ->
  nlen b < 2 ^ 63 ->
  Forall (fun ca => ca_num_values ca < 2 ^ 63 /\ ca_uncompressed ca < 2 ^ 63)
         (ra_chunks (snd (write_batch compress cfg b))) ->
  rg_acc_ok (snd (write_batch compress cfg b)).
Proof.
  intros Hpaths Hb Hrows Htot. unfold schema_bound in Hb. split; [|split].
  - rewrite ra_chunks_written in Htot |- *. rewrite Forall_map in Htot |- *.
    rewrite Forall_forall in Htot, Hpaths |- *. intros [i c] Hic. specialize (Htot (i, c) Hic).
    destruct (WriterProofs.index_from_In _ 0 i c Hic) as [_ Hnth]. apply nth_error_In in Hnth.
    cbn [fst snd] in Htot |- *. destruct Htot as [Hnv Hunc].
    unfold acc_ok, chunk_of_pages in *. cbn [ca_col ca_num_values ca_uncompressed] in *.
    split; [exact Hnv|]. split; [exact Hunc|]. split; [exact (Hpaths c Hnth)|].
    pose proof (path_weight_depth _ c Hnth) as Hd. lia.
  - rewrite ra_chunks_written. unfold nlen. rewrite map_length, index_from_length.
    pose proof (path_weight_len (columns (cfg_fields cfg))) as Hl. unfold nlen in Hl. lia.
  - cbn [write_batch snd ra_rows]. exact Hrows.
Qed.

(** ** The footer of a written file: per-chunk totals assumed *)

Theorem file_meta_ok_written cfg bs :
  shape_names_ok (cfg_fields cfg) ->
  schema_bound (columns (cfg_fields cfg)) < 2 ^ 31 ->
  In (cfg_codec cfg) [CODEC_UNCOMPRESSED; CODEC_SNAPPY; CODEC_GZIP] ->
  nlen bs < 2 ^ 31 ->
  nlen (concat bs) < 2 ^ 63 ->
  nlen (data_section cfg bs) + 4 < 2 ^ 63 ->
  chunk_totals_ok cfg bs ->
  file_meta_ok (footer_meta cfg (map (fun b => snd (write_batch compress cfg b)) bs)) = true.
Proof.
  intros Hnm Hsb Hcodec Hnb Hrows Hbytes Htot. fold (ValidatorProofs.batch_rgs compress cfg bs).
  apply footer_meta_ok.
  - apply codec_i32_ok. exact Hcodec.
  - apply schema_ok_written; assumption.
  - unfold ValidatorProofs.batch_rgs. rewrite Forall_map. unfold chunk_totals_ok in Htot.
    rewrite Forall_forall in Htot |- *. intros b Hb.
    apply written_rg_acc_ok; [apply columns_path_ok; exact Hnm|exact Hsb| |exact (Htot b Hb)].
    assert (Hle : nlen b <= nlen (concat bs)).
    { rewrite <- (sumN_nlen_concat bs). apply sumN_map_In, Hb. }
    lia.
  - unfold ValidatorProofs.batch_rgs, nlen in *. rewrite map_length. exact Hnb.
  - rewrite written_bytes. lia.
  - rewrite written_rows. exact Hrows.
Qed.

(** ** The per-chunk totals from the per-page bounds *)

(** the page conjunct of [ReaderProofs2.batch_ok] *)
Definition pages_ok (cfg : config) (b : list value) : Prop :=
  forall i c, nth_error (columns (cfg_fields cfg)) i = Some c ->
              Forall (page_sizes_ok compress (cfg_codec cfg) c) (col_ess cfg i b).

Lemma batch_sizes_pages cfg b : ValidatorProofs.batch_sizes_ok compress cfg b -> pages_ok cfg b.
Proof.
  intros H i c Hc. unfold ValidatorProofs.batch_sizes_ok, ValidatorProofs.batch_cess in H.
  rewrite Forall_map in H. rewrite Forall_forall in H.
  exact (H (i, c) (nth_error_In _ _ (index_from_nth _ 0%nat i c Hc))).
Qed.

Lemma col_ess_length cfg i b : nlen (col_ess cfg i b) <= nlen b.
Proof.
  unfold col_ess, nlen. rewrite map_length. unfold chunk.
  pose proof (chunk_fuel_length (cfg_max cfg) (length b) b) as H. lia.
Qed.

Lemma pages_totals codec c ess :
  Forall (page_sizes_ok compress codec c) ess ->
  ca_num_values (chunk_of_pages c (map (make_page compress codec c) ess)) <= 2 ^ 31 * nlen ess /\
  ca_uncompressed (chunk_of_pages c (map (make_page compress codec c) ess)) <=
    ca_compressed (chunk_of_pages c (map (make_page compress codec c) ess)) + 2 ^ 31 * nlen ess.
Proof.
  unfold chunk_of_pages. cbn [ca_num_values ca_uncompressed ca_compressed].
  induction 1 as [|es ess (H1 & H2 & _) Hess [IH1 IH2]].
  - cbn [map sumN]. unfold nlen. cbn [length]. lia.
  - cbn [map sumN]. rewrite nlen_cons. cbn [make_page pg_count pg_payload_len pg_header_bytes pg_body].
    cbn [make_page pg_count pg_payload_len pg_header_bytes pg_body] in IH1, IH2.
    rewrite pow31 in *. lia.
Qed.

Lemma chunk_totals_of_pages cfg bs :
  Forall (fun b => nlen b < 2 ^ 31) bs ->
  nlen (data_section cfg bs) + 4 < 2 ^ 62 ->
  Forall (pages_ok cfg) bs ->
  chunk_totals_ok cfg bs.
Proof.
  intros Hlen Hbytes Hpages. unfold chunk_totals_ok.
  rewrite Forall_forall in Hlen, Hpages |- *. intros b Hb.
  specialize (Hlen b Hb). specialize (Hpages b Hb).
  pose proof (sumN_map_In (fun b => rg_bytes (snd (write_batch compress cfg b))) b bs Hb) as Hsec.
  rewrite <- map_map in Hsec. fold (ValidatorProofs.batch_rgs compress cfg bs) in Hsec.
  rewrite written_bytes in Hsec. unfold rg_bytes in Hsec. rewrite ra_chunks_written in Hsec |- *.
  rewrite Forall_map. apply Forall_forall. intros [i c] Hic. cbn [fst snd].
  assert (Hcomp : ca_compressed (chunk_of_pages c (column_pages compress cfg i c b)) <=
                  nlen (data_section cfg bs)).
  { etransitivity; [|exact Hsec]. rewrite map_map.
    exact (sumN_map_In (fun ic => ca_compressed (chunk_of_pages (snd ic) (column_pages compress cfg (fst ic) (snd ic) b))) (i, c) _ Hic). }
  destruct (WriterProofs.index_from_In _ 0 i c Hic) as [_ Hnth]. rewrite Nat.sub_0_r in Hnth.
  rewrite column_pages_eq in Hcomp |- *.
  destruct (pages_totals (cfg_codec cfg) c (col_ess cfg i b) (Hpages i c Hnth)) as [T1 T2].
  pose proof (col_ess_length cfg i b) as Hpg.
  rewrite pow31 in *. rewrite p62 in *. rewrite p63. lia.
Qed.

Lemma rows_total (bs : list (list value)) :
  Forall (fun b => nlen b < 2 ^ 31) bs -> nlen (concat bs) <= 2 ^ 31 * nlen bs.
Proof.
  induction 1 as [|b bs Hb Hbs IH]; [cbn [concat]; rewrite !nlen_nil; lia|].
  cbn [concat]. rewrite nlen_app, nlen_cons. rewrite pow31 in *. lia.
Qed.

Theorem file_meta_ok_written_pages cfg bs :
  shape_names_ok (cfg_fields cfg) ->
  schema_bound (columns (cfg_fields cfg)) < 2 ^ 31 ->
  In (cfg_codec cfg) [CODEC_UNCOMPRESSED; CODEC_SNAPPY; CODEC_GZIP] ->
  nlen bs < 2 ^ 31 ->
  Forall (fun b => nlen b < 2 ^ 31) bs ->
  nlen (data_section cfg bs) + 4 < 2 ^ 62 ->
  Forall (pages_ok cfg) bs ->
  file_meta_ok (footer_meta cfg (map (fun b => snd (write_batch compress cfg b)) bs)) = true.
Proof.
  intros Hnm Hsb Hcodec Hnb Hlen Hbytes Hpages.
  apply file_meta_ok_written; try assumption.
  - pose proof (rows_total bs Hlen) as Hr. rewrite pow31 in *. rewrite p63. lia.
  - rewrite p62 in Hbytes. rewrite p63. lia.
  - apply chunk_totals_of_pages; assumption.
Qed.

Lemma written_rg_cost cfg b :
  rg_cost (snd (write_batch compress cfg b)) = 39 + sumN (map chunk_cost (columns (cfg_fields cfg))).
Proof.
  unfold rg_cost. rewrite ra_chunks_written, map_map. cbn [chunk_of_pages ca_col].
  rewrite <- (index_from_snd (columns (cfg_fields cfg)) 0%nat) at 2. rewrite map_map. reflexivity.
Qed.

Lemma written_rgs_cost cfg bs :
  sumN (map rg_cost (ValidatorProofs.batch_rgs compress cfg bs)) =
  nlen bs * (39 + sumN (map chunk_cost (columns (cfg_fields cfg)))).
Proof.
  unfold ValidatorProofs.batch_rgs. rewrite map_map.
  induction bs as [|b bs IH]; [cbn [map sumN]; unfold nlen; cbn [length]; lia|].
  cbn [map sumN]. rewrite nlen_cons, written_rg_cost, IH. lia.
Qed.

(** the arithmetic of [footer_len_bound]: [S1] schema elements of at most
    [82 + M] bytes each, [nb] row groups of 39 bytes plus the chunk entries [C] *)
Lemma footer_bound_arith M W S1 X C nb :
  S1 <= 1 + W -> X <= (82 + M) * S1 -> C <= (133 + M) * W ->
  44 + X + nb * (39 + C) <= (1 + nb) * (64 + (133 + M) * (1 + W)).
Proof.
  intros HS HX HC.
  assert (H1 : (82 + M) * S1 <= (82 + M) * (1 + W)) by (apply N.mul_le_mono_l; exact HS).
  assert (H2 : nb * (39 + C) <= nb * (39 + (133 + M) * W)) by (apply N.mul_le_mono_l; lia).
  lia.
Qed.

Theorem footer_len_written M cfg bs :
  file_meta_ok (footer_meta cfg (map (fun b => snd (write_batch compress cfg b)) bs)) = true ->
  4 <= M -> shape_names_le M (cfg_fields cfg) ->
  nlen (enc_file_meta (footer_meta cfg (map (fun b => snd (write_batch compress cfg b)) bs))) <=
  footer_len_bound M (columns (cfg_fields cfg)) (nlen bs).
Proof.
  intros Hok HM Hnm. fold (ValidatorProofs.batch_rgs compress cfg bs) in Hok |- *.
  etransitivity; [apply footer_len_le; exact Hok|].
  pose proof (columns_path_all _ _ Hnm) as Hcols.
  unfold footer_cost, footer_len_bound, schema_bound. rewrite written_rgs_cost.
  apply (footer_bound_arith M _ (nlen (schema_of (columns (cfg_fields cfg))))).
  - apply (schema_of_inv (fun _ => True) (fun _ => True)); auto. apply Forall_forall. auto.
  - exact (sumN_le_const _ _ _ (schema_names_le M _ HM Hcols)).
  - exact (cols_cost_le M _ Hcols).
Qed.

Lemma batch_rgs_eq cfg bs : ValidatorProofs.batch_rgs compress cfg bs = batch_rgs compress cfg bs.
Proof. unfold ValidatorProofs.batch_rgs, batch_rgs. rewrite map_map. reflexivity. Qed.

Lemma data_section_eq cfg bs : data_section cfg bs = data_bytes compress cfg bs.
Proof. reflexivity. Qed.

Lemma footer_len_bound_small M cols nb :
  footer_len_bound M cols nb < 2 ^ 32 -> schema_bound cols < 2 ^ 31 /\ nb < 2 ^ 31.
Proof.
  unfold footer_len_bound. rewrite pow32, pow31. intros H.
  set (S := schema_bound cols) in *.
  assert (H1 : 1 * (64 + (133 + M) * S) <= (1 + nb) * (64 + (133 + M) * S))
    by (apply N.mul_le_mono_r; lia).
  assert (H2 : 133 * S <= (133 + M) * S) by (apply N.mul_le_mono_r; lia).
  assert (H3 : (1 + nb) * 64 <= (1 + nb) * (64 + (133 + M) * S)) by (apply N.mul_le_mono_l; lia).
  lia.
Qed.

Lemma footer_written M cfg bs :
  Forall (pages_ok cfg) bs ->
  In (cfg_codec cfg) [CODEC_UNCOMPRESSED; CODEC_SNAPPY; CODEC_GZIP] ->
  shape_names_ok (cfg_fields cfg) ->
  4 <= M -> shape_names_le M (cfg_fields cfg) ->
  footer_len_bound M (columns (cfg_fields cfg)) (nlen bs) < 2 ^ 32 ->
  Forall (fun b => nlen b < 2 ^ 31) bs ->
  nlen (data_section cfg bs) + 4 < 2 ^ 62 ->
  file_meta_ok (footer_meta cfg (map (fun b => snd (write_batch compress cfg b)) bs)) = true /\
  nlen (enc_file_meta (footer_meta cfg (map (fun b => snd (write_batch compress cfg b)) bs))) < 2 ^ 32.
Proof.
  intros Hpages Hcodec Hnm HM Hle Hft Hlen Hbytes.
  destruct (footer_len_bound_small _ _ _ Hft) as [Hsb Hnb].
  assert (Hok : file_meta_ok (footer_meta cfg (map (fun b => snd (write_batch compress cfg b)) bs)) = true)
    by (apply file_meta_ok_written_pages; assumption).
  split; [exact Hok|].
  eapply N.le_lt_trans; [apply (footer_len_written M); assumption|exact Hft].
Qed.

Corollary footer_ok_written M cfg bs :
  ReaderProofs2.cfg_ok cfg -> Forall (ReaderProofs2.batch_ok compress cfg) bs ->
  shape_names_ok (cfg_fields cfg) ->
  4 <= M -> shape_names_le M (cfg_fields cfg) ->
  footer_len_bound M (columns (cfg_fields cfg)) (nlen bs) < 2 ^ 32 ->
  Forall (fun b => nlen b < 2 ^ 31) bs ->
  nlen (data_bytes compress cfg bs) + 4 < 2 ^ 62 ->
  footer_ok compress cfg bs.
Proof.
  intros (_ & Hcodec & _) Hbs. unfold footer_ok, footer. rewrite <- batch_rgs_eq.
  apply footer_written; [|exact Hcodec].
  eapply Forall_impl; [|exact Hbs]. intros b (_ & _ & H). exact H.
Qed.

Corollary sizes_ok_written M cfg bs :
  Forall (ValidatorProofs.batch_sizes_ok compress cfg) bs ->
  In (cfg_codec cfg) [CODEC_UNCOMPRESSED; CODEC_SNAPPY; CODEC_GZIP] ->
  shape_names_ok (cfg_fields cfg) ->
  4 <= M -> shape_names_le M (cfg_fields cfg) ->
  footer_len_bound M (columns (cfg_fields cfg)) (nlen bs) < 2 ^ 32 ->
  Forall (fun b => nlen b < 2 ^ 31) bs ->
  nlen (data_section cfg bs) + 4 < 2 ^ 62 ->
  ValidatorProofs.sizes_ok compress cfg bs.
Proof.
  intros Hbs Hcodec Hnm HM Hle Hft Hlen Hbytes. split; [exact Hbs|].
  apply (footer_written M); try assumption.
  eapply Forall_impl; [|exact Hbs]. intros b. apply batch_sizes_pages.
Qed.

End WithCodec.

(** [file_meta_ok_written] as a closed proposition: [compress] is quantified *)
Definition file_meta_ok_written_full : Prop :=
  forall compress cfg bs,
    shape_names_ok (cfg_fields cfg) ->
    schema_bound (columns (cfg_fields cfg)) < 2 ^ 31 ->
    In (cfg_codec cfg) [CODEC_UNCOMPRESSED; CODEC_SNAPPY; CODEC_GZIP] ->
    nlen bs < 2 ^ 31 ->
    nlen (concat bs) < 2 ^ 63 ->
    nlen (concat (map (fun b => concat (fst (write_batch compress cfg b))) bs)) + 4 < 2 ^ 63 ->
    chunk_totals_ok compress cfg bs ->
    file_meta_ok (footer_meta cfg (map (fun b => snd (write_batch compress cfg b)) bs)) = true.

Theorem file_meta_ok_written_full_holds : file_meta_ok_written_full.
Proof. intros compress cfg bs. apply file_meta_ok_written. Qed.

(** ** The hypotheses are satisfiable: the small configurations of
    [ReaderProofs2.Example] and [ValidatorProofs.Tiny] *)
Module Instances.
Import ReaderProofs2.Example.

Example example_inputs_ok :
  ty_names_allb bin_ok (TGroup fs0) = true /\
  ty_names_allb (fun n => nlen n <=? 4) (TGroup fs0) = true /\
  schema_bound (columns fs0) = 7 /\
  footer_len_bound 4 (columns fs0) (nlen bs0) = 4092 /\
  nlen (enc_file_meta (footer cid cfg0 bs0)) = 304 /\
  forallb (fun b => nlen b <? 2 ^ 31) bs0 = true /\
  nlen (data_bytes cid cfg0 bs0) = 428.
Proof. vm_compute. repeat split. Qed.

Example example_footer_ok : footer_ok cid cfg0 bs0.
Proof.
  destruct hyps_hold as (H1 & H2 & _).
  destruct example_inputs_ok as (N1 & N2 & _ & N4 & _ & N6 & N7).
  apply (footer_ok_written cid 4).
  - apply cfg_okb_sound. exact H1.
  - apply Forall_forall. intros b Hb. rewrite forallb_forall in H2. apply batch_okb_sound, H2, Hb.
  - exact N1.
  - lia.
  - exact N2.
  - change (cfg_fields cfg0) with fs0. rewrite N4. rewrite pow32. lia.
  - apply Forall_forall. intros b Hb. rewrite forallb_forall in N6. specialize (N6 b Hb). lia.
  - rewrite N7, p62. lia.
Qed.

Example tiny_sizes_ok :
  ValidatorProofs.sizes_ok ValidatorProofs.Tiny.cmp ValidatorProofs.Tiny.cfg0
    [[ValidatorProofs.Tiny.rA; ValidatorProofs.Tiny.rB]].
Proof.
  apply (sizes_ok_written ValidatorProofs.Tiny.cmp 4).
  - exact (proj1 (ValidatorProofs.sizes_okb_sound _ _ _ (proj2 ValidatorProofs.Tiny.tiny_sizes_ok))).
  - left. reflexivity.
  - vm_compute. reflexivity.
  - lia.
  - vm_compute. reflexivity.
  - vm_compute. reflexivity.
  - repeat constructor.
  - vm_compute. reflexivity.
Qed.

(** the name condition is needed: a name that is not a byte string *)
Example names_needed :
  file_meta_ok (footer_meta {| cfg_fields := [([256], Req, TLeaf PInt32)]; cfg_max := 1;
                               cfg_codec := CODEC_UNCOMPRESSED |} []) = false.
Proof. vm_compute. reflexivity. Qed.
End Instances.

Print Assumptions schema_ok_written.
Print Assumptions footer_meta_ok.
Print Assumptions file_meta_ok_written.
Print Assumptions file_meta_ok_written_pages.
Print Assumptions footer_len_written.
Print Assumptions footer_ok_written.
Print Assumptions sizes_ok_written.
Print Assumptions file_meta_ok_written_full_holds.
Print Assumptions Instances.example_footer_ok.
Print Assumptions Instances.tiny_sizes_ok.
