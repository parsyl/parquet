(** * WriteBufferProofs: the logical-content model of the write buffer used in
    [Rle.v] is exactly what the real [writeBuffer] of internal/rle/buf.go holds:
    under [wb_inv] ([i <= len(d)]), [write] appends to [bytes()] and a one-byte
    [writeAt] below [i] is [update_at] on [bytes()], whatever [size] the buffer
    was created with.  Hence the encoder of rle.go run on the real buffer
    ([rle_encode_b]) produces the same bytes as the encoder of [Rle.v]. *)
From Coq Require Import List NArith ZArith Lia Bool Arith PeanoNat.
From Coq Require Import ZifyN ZifyNat ZifyBool.
From PQ Require Import Bytes Varint Bitpack Rle WriteBuffer.
Import ListNotations.
Local Open Scope N_scope.

(** ** Test vectors of the refinement: level lists, and buffer sizes (0, too
    small, exact, larger) at which [wbt_same] compares the two encoders *)

Definition wbt_levels1 : list N := [1;1;0;1;0;0;0;0;0;0;0;0;0;0;0;0;1;1;1;0;1].
Definition wbt_levels2 : list N :=
  repeat 1 20 ++ [0;1;2;3;0;1;2;3;3] ++ repeat 2 9 ++ [1].
Fixpoint wbt_alt (n : nat) : list N :=
  match n with O => [] | S k => 0 :: 1 :: wbt_alt k end.
Definition wbt_same (w : N) (l : list N) : bool :=
  forallb (fun s => if list_eq_dec N.eq_dec (rle_encode_b w s l) (rle_encode w l)
                    then true else false)
          [0; 1; 2; 3; 5; length l; S (length l); 2 * length l; 7 * length l]%nat.

Example wbt_grow : wb_write_at [7] 1 (wb_write [1;2;3] (wb_new 1)) = {| wb_d := [1;7;3]; wb_i := 3 |}.
Proof. vm_compute. reflexivity. Qed.

Example wbt_last : wb_write_at [7] 2 (wb_write [1;2;3] (wb_new 3)) = {| wb_d := [1;2;7]; wb_i := 3 |}.
Proof. vm_compute. reflexivity. Qed.

Lemma skipn_repeat0 {A} (x : A) k n : skipn k (repeat x n) = repeat x (n - k).
Proof.
  revert n; induction k as [|k IH]; intros [|n]; cbn [skipn repeat Nat.sub]; auto.
Qed.

Lemma firstn_update_at n i x (l : bytes) :
  firstn n (update_at i x l) = update_at i x (firstn n l).
Proof.
  revert n i; induction l as [|y r IH]; intros [|n] [|i];
    cbn [update_at firstn]; try reflexivity.
  rewrite IH. reflexivity.
Qed.

Lemma go_copy_length dst src : length (go_copy dst src) = length dst.
Proof.
  unfold go_copy. rewrite app_length, firstn_length, skipn_length. lia.
Qed.

(** [nd := make([]byte, n); copy(nd, d)] with [len(d) <= n] is [d] zero padded. *)
Lemma go_copy_grow n (d : bytes) :
  (length d <= n)%nat -> go_copy (repeat 0 n) d = d ++ repeat 0 (n - length d).
Proof.
  intros Hn. unfold go_copy. rewrite repeat_length, skipn_repeat0.
  rewrite firstn_all2 by lia. reflexivity.
Qed.

Lemma copy_at_length off dat d :
  length (copy_at off dat d) = length d.
Proof.
  unfold copy_at.
  rewrite app_length, go_copy_length, firstn_length, skipn_length. lia.
Qed.

Lemma copy_at_fits off dat d :
  (off + length dat <= length d)%nat ->
  copy_at off dat d = firstn off d ++ dat ++ skipn (off + length dat) d.
Proof.
  intros Hfit. unfold copy_at, go_copy.
  rewrite skipn_length, (firstn_all2 dat) by lia.
  rewrite <- skipn_add. reflexivity.
Qed.

Lemma copy_at_single hp h d :
  (hp < length d)%nat -> copy_at hp [h] d = update_at hp h d.
Proof.
  revert hp; induction d as [|y r IH]; intros hp Hhp; cbn [length] in Hhp; [lia|].
  destruct hp as [|hp].
  - unfold copy_at, go_copy. cbn [firstn skipn length app update_at].
    rewrite firstn_nil. reflexivity.
  - cbn [update_at]. rewrite <- IH by lia.
    unfold copy_at. cbn [firstn skipn app]. reflexivity.
Qed.

(** The backing slice after the optional reallocation of the third branch. *)
Lemma wb_realloc off n (d : bytes) :
  (if Nat.leb (length d) (off + n) then go_copy (repeat 0 (off + n)%nat) d else d)
  = d ++ repeat 0 (off + n - length d).
Proof.
  destruct (Nat.leb_spec (length d) (off + n)) as [Hle|Hgt].
  - apply go_copy_grow. exact Hle.
  - replace (off + n - length d)%nat with 0%nat by lia.
    cbn [repeat]. rewrite app_nil_r. reflexivity.
Qed.

Lemma wb_write_at_i dat off w :
  wb_i (wb_write_at dat off w) = Nat.max (wb_i w) (length dat + off).
Proof.
  unfold wb_write_at.
  destruct (Nat.eqb off (length (wb_d w))) eqn:Eoff; cbn [wb_i];
    destruct (Nat.ltb_spec (wb_i w) (length dat + off)) as [Hlt|Hge]; lia.
Qed.

Lemma wb_write_at_d_length dat off w :
  length (wb_d (wb_write_at dat off w)) = Nat.max (length (wb_d w)) (off + length dat).
Proof.
  unfold wb_write_at.
  destruct (Nat.eqb_spec off (length (wb_d w))) as [Eoff|Noff]; cbn [wb_d].
  - rewrite app_length. lia.
  - rewrite wb_realloc, copy_at_length, app_length, repeat_length. lia.
Qed.

Lemma wb_write_at_d_inside dat off w :
  (off < length (wb_d w))%nat ->
  wb_d (wb_write_at dat off w) =
  firstn off (wb_d w) ++ dat ++
  skipn (off + length dat) (wb_d w ++ repeat 0 (off + length dat - length (wb_d w))).
Proof.
  intros Hoff. unfold wb_write_at.
  destruct (Nat.eqb_spec off (length (wb_d w))) as [Eoff|Noff]; [lia|]. cbn [wb_d].
  rewrite wb_realloc.
  rewrite copy_at_fits by (rewrite app_length, repeat_length; lia).
  rewrite firstn_app. replace (off - length (wb_d w))%nat with 0%nat by lia.
  rewrite firstn_O, app_nil_r. reflexivity.
Qed.

Lemma wb_inv_new n : wb_inv (wb_new n).
Proof. unfold wb_inv, wb_new. cbn [wb_i wb_d]. lia. Qed.

Lemma wb_inv_write_at_any dat off w : wb_inv w -> wb_inv (wb_write_at dat off w).
Proof.
  unfold wb_inv. intros Hinv. rewrite wb_write_at_i, wb_write_at_d_length. lia.
Qed.

Theorem wb_inv_write_at dat off w :
  (off <= wb_i w)%nat -> wb_inv w -> wb_inv (wb_write_at dat off w).
Proof. intros _. apply wb_inv_write_at_any. Qed.

Lemma wb_inv_write dat w : wb_inv w -> wb_inv (wb_write dat w).
Proof. apply wb_inv_write_at_any. Qed.

Lemma wb_bytes_length w : wb_inv w -> length (wb_bytes w) = wb_i w.
Proof. unfold wb_inv, wb_bytes. intros Hinv. rewrite firstn_length. lia. Qed.

Lemma wb_bytes_new n : wb_bytes (wb_new n) = [].
Proof. reflexivity. Qed.

(** ** Refinement of the logical-content model *)

Lemma wb_write_i dat w : wb_i (wb_write dat w) = (wb_i w + length dat)%nat.
Proof. unfold wb_write. rewrite wb_write_at_i. lia. Qed.

Theorem wb_bytes_write dat w :
  wb_inv w -> wb_bytes (wb_write dat w) = wb_bytes w ++ dat.
Proof.
  unfold wb_inv. intros Hinv. unfold wb_bytes. rewrite wb_write_i. unfold wb_write.
  destruct (Nat.eq_dec (wb_i w) (length (wb_d w))) as [Eend|Nend].
  - unfold wb_write_at. rewrite Eend, Nat.eqb_refl. cbn [wb_d].
    rewrite firstn_all, firstn_all2 by (rewrite app_length; lia). reflexivity.
  - rewrite wb_write_at_d_inside by lia.
    set (pre := firstn (wb_i w) (wb_d w)).
    assert (Hpre : length pre = wb_i w) by (unfold pre; rewrite firstn_length; lia).
    rewrite app_assoc.
    replace (wb_i w + length dat)%nat with (length (pre ++ dat))
      by (rewrite app_length; lia).
    apply firstn_app_exact.
Qed.

Theorem wb_patch_i h hp w :
  (hp < wb_i w)%nat -> wb_i (wb_write_at [h] hp w) = wb_i w.
Proof. intros Hhp. rewrite wb_write_at_i. cbn [length]. lia. Qed.

Lemma wb_patch_d h hp w :
  wb_inv w -> (hp < wb_i w)%nat ->
  wb_d (wb_write_at [h] hp w) = update_at hp h (wb_d w).
Proof.
  unfold wb_inv. intros Hinv Hhp. unfold wb_write_at.
  destruct (Nat.eqb_spec hp (length (wb_d w))) as [Eoff|Noff]; [lia|]. cbn [wb_d].
  rewrite wb_realloc. cbn [length].
  replace (hp + 1 - length (wb_d w))%nat with 0%nat by lia.
  cbn [repeat]. rewrite app_nil_r. apply copy_at_single. lia.
Qed.

Theorem wb_bytes_patch h hp w :
  wb_inv w -> (hp < wb_i w)%nat ->
  wb_bytes (wb_write_at [h] hp w) = update_at hp h (wb_bytes w).
Proof.
  intros Hinv Hhp. unfold wb_bytes.
  rewrite wb_patch_i by exact Hhp. rewrite wb_patch_d by assumption.
  apply firstn_update_at.
Qed.

(** ** The encoder on the real buffer simulates the encoder of [Rle.v] *)

Definition abs_b (r : rle_b) : rle :=
  {| r_w := b_w r; r_out := wb_bytes (b_out r); r_prev := b_prev r; r_buf := b_buf r;
     r_rep := b_rep r; r_groups := b_groups r; r_hp := b_hp r |}.

Definition hp_ok (o : wbuf) (hp : option nat) : Prop :=
  forall h, hp = Some h -> (h < wb_i o)%nat.

Definition good_b (r : rle_b) : Prop := wb_inv (b_out r) /\ hp_ok (b_out r) (b_hp r).

Definition sim (r : rle) (rb : rle_b) : Prop := good_b rb /\ abs_b rb = r.

Lemma hp_ok_none o : hp_ok o None.
Proof. intros h Hd. discriminate Hd. Qed.

Lemma hp_ok_write dat o hp : hp_ok o hp -> hp_ok (wb_write dat o) hp.
Proof. intros H h Hd. specialize (H h Hd). rewrite wb_write_i. lia. Qed.

Lemma sim_new w size : sim (rle_new w) (rle_new_b w size).
Proof. split; [split; [apply wb_inv_new | apply hp_ok_none] | reflexivity]. Qed.

Lemma abs_b_if (c : bool) a b : abs_b (if c then a else b) = if c then abs_b a else abs_b b.
Proof. destruct c; reflexivity. Qed.

Lemma sim_fields r rb :
  sim r rb ->
  r_prev r = b_prev rb /\ r_buf r = b_buf rb /\ r_rep r = b_rep rb /\ r_groups r = b_groups rb.
Proof. intros [_ <-]. repeat split. Qed.

Lemma end_previous_bp_sim r rb : sim r rb -> sim (end_previous_bp r) (end_previous_bp_b rb).
Proof.
  intros [[Hinv Hhp] <-]. unfold end_previous_bp_b, end_previous_bp.
  cbn [abs_b r_hp]. destruct (b_hp rb) as [hp|] eqn:Ehp.
  - split; [split; [apply wb_inv_write_at_any; exact Hinv | apply hp_ok_none]|].
    unfold abs_b. cbn [b_w b_out b_prev b_buf b_rep b_groups b_hp r_w r_out r_prev r_buf r_rep r_groups].
    rewrite wb_bytes_patch by auto. reflexivity.
  - split; [split; [exact Hinv | rewrite Ehp; apply hp_ok_none] | reflexivity].
Qed.

Lemma end_previous_bp_b_hp r : b_hp (end_previous_bp_b r) = None.
Proof. unfold end_previous_bp_b. destruct (b_hp r) as [hp|] eqn:Ehp; [reflexivity | exact Ehp]. Qed.

Lemma write_or_append_bp_sim r rb vals8 :
  sim r rb -> sim (write_or_append_bp r vals8) (write_or_append_bp_b rb vals8).
Proof.
  intros H. unfold write_or_append_bp, write_or_append_bp_b. cbv zeta.
  assert (H1 : sim (if 63 <=? r_groups r then end_previous_bp r else r)
                   (if 63 <=? b_groups rb then end_previous_bp_b rb else rb)).
  { destruct (sim_fields _ _ H) as (_ & _ & _ & ->).
    destruct (63 <=? b_groups rb); [apply end_previous_bp_sim|]; exact H. }
  (* what follows the [groupCount >= 63] test sees the state only through [r1] *)
  revert H1. generalize (if 63 <=? r_groups r then end_previous_bp r else r)
                        (if 63 <=? b_groups rb then end_previous_bp_b rb else rb).
  clear. intros r1 rb1 [[Hinv Hhp] <-]. cbn [abs_b r_hp r_out r_w r_prev r_groups].
  destruct (b_hp rb1) as [hp|] eqn:Ehp.
  - split; [split; cbn [b_out b_hp]; [apply wb_inv_write; exact Hinv | apply hp_ok_write; exact Hhp]|].
    unfold abs_b. cbn [b_w b_out b_prev b_buf b_rep b_groups b_hp].
    rewrite wb_bytes_write by exact Hinv. reflexivity.
  - pose proof (wb_inv_write [0] (b_out rb1) Hinv) as Hinv1. split.
    + split; cbn [b_out b_hp]; [apply wb_inv_write; exact Hinv1|].
      intros h Hd. injection Hd as <-. rewrite !wb_write_i. cbn [length]. lia.
    + unfold abs_b. cbn [b_w b_out b_prev b_buf b_rep b_groups b_hp].
      rewrite wb_bytes_write by exact Hinv1. rewrite wb_bytes_write by exact Hinv.
      rewrite wb_write_i, wb_bytes_length by exact Hinv. cbn [length].
      replace (wb_i (b_out rb1) + 1 - 1)%nat with (wb_i (b_out rb1)) by lia. reflexivity.
Qed.

Lemma write_rle_run_sim r rb : sim r rb -> sim (write_rle_run r) (write_rle_run_b rb).
Proof.
  intros H. unfold write_rle_run_b, write_rle_run.
  destruct (end_previous_bp_sim r rb H) as [[Hinv1 Hhp1] <-].
  set (r1 := end_previous_bp_b rb) in *.
  pose proof (wb_inv_write (leb128_go (2 * b_rep r1)) (b_out r1) Hinv1) as Hinv2.
  split.
  - split; cbn [b_out b_hp]; [apply wb_inv_write; exact Hinv2 | apply hp_ok_write, hp_ok_write, Hhp1].
  - unfold abs_b. cbn [b_w b_out b_prev b_buf b_rep b_groups b_hp r_w r_out r_prev r_buf r_rep r_groups r_hp].
    rewrite wb_bytes_write by exact Hinv2. rewrite wb_bytes_write by exact Hinv1.
    rewrite <- app_assoc. reflexivity.
Qed.

Lemma set_rep_prev_sim r rb rep prev :
  sim r rb -> sim (set_rep_prev r rep prev) (set_rep_prev_b rb rep prev).
Proof. intros [Hgood <-]. split; [exact Hgood | reflexivity]. Qed.

Lemma rle_push_sim r rb v : sim r rb -> sim (rle_push r v) (rle_push_b rb v).
Proof.
  intros H. unfold rle_push_b, rle_push. cbv zeta. cbn [b_buf r_buf].
  destruct (sim_fields _ _ H) as (_ & -> & _).
  assert (H1 : sim {| r_w := r_w r; r_out := r_out r; r_prev := r_prev r; r_buf := b_buf rb ++ [v];
                      r_rep := r_rep r; r_groups := r_groups r; r_hp := r_hp r |}
                   {| b_w := b_w rb; b_out := b_out rb; b_prev := b_prev rb; b_buf := b_buf rb ++ [v];
                      b_rep := b_rep rb; b_groups := b_groups rb; b_hp := b_hp rb |}).
  { destruct H as [Hgood <-]. split; [exact Hgood | reflexivity]. }
  destruct (Nat.eqb (length (b_buf rb ++ [v])) 8); [apply write_or_append_bp_sim|]; exact H1.
Qed.

Lemma rle_write_sim r rb v : sim r rb -> sim (rle_write r v) (rle_write_b rb v).
Proof.
  intros H. unfold rle_write_b, rle_write. cbv zeta. cbn [set_rep_prev r_rep set_rep_prev_b b_rep].
  destruct (sim_fields _ _ H) as (-> & _ & -> & _).
  destruct (v =? b_prev rb).
  - destruct (8 <=? b_rep rb + 1); [|apply rle_push_sim]; apply set_rep_prev_sim, H.
  - apply rle_push_sim, set_rep_prev_sim.
    destruct (8 <=? b_rep rb); [apply write_rle_run_sim|]; exact H.
Qed.

Lemma rle_flush_sim r rb : sim r rb -> sim (rle_flush r) (rle_flush_b rb).
Proof.
  intros H. unfold rle_flush_b, rle_flush.
  destruct (sim_fields _ _ H) as (_ & -> & -> & _).
  destruct (8 <=? b_rep rb); [apply write_rle_run_sim, H|].
  destruct (negb (Nat.eqb (length (b_buf rb)) 0));
    [apply end_previous_bp_sim, write_or_append_bp_sim, H | apply end_previous_bp_sim, H].
Qed.

Lemma rle_fold_sim levels : forall r rb,
  sim r rb -> sim (fold_left rle_write levels r) (fold_left rle_write_b levels rb).
Proof.
  induction levels as [|v levels IH]; intros r rb H; cbn [fold_left]; [exact H|].
  apply IH, rle_write_sim, H.
Qed.

Lemma rle_bytes_sim r rb : sim r rb -> rle_bytes_b rb = rle_bytes r.
Proof.
  intros H. destruct (rle_flush_sim r rb H) as [[Hinv _] Ha].
  unfold rle_bytes_b, rle_bytes. rewrite <- Ha. cbn [abs_b r_out].
  unfold nlen. rewrite wb_bytes_length by exact Hinv. reflexivity.
Qed.

Theorem rle_encode_b_eq w size levels : rle_encode_b w size levels = rle_encode w levels.
Proof. apply rle_bytes_sim, rle_fold_sim, sim_new. Qed.

(** The invariant of [Rle.v]'s own encoder obtained on the way: the remembered
    header position is inside the output (so [update_at] really overwrites). *)
Theorem rle_hp_in_out w levels hp :
  r_hp (fold_left rle_write levels (rle_new w)) = Some hp ->
  (hp < length (r_out (fold_left rle_write levels (rle_new w))))%nat.
Proof.
  destruct (rle_fold_sim levels _ _ (sim_new w 0)) as [[Hinv Hhp] <-]. cbn [abs_b r_hp r_out].
  intros Hd. rewrite wb_bytes_length by exact Hinv. apply Hhp. exact Hd.
Qed.

Lemma wbt_same_true w l : wbt_same w l = true.
Proof.
  unfold wbt_same. apply forallb_forall. intros s _. rewrite rle_encode_b_eq.
  destruct (list_eq_dec N.eq_dec (rle_encode w l) (rle_encode w l)); congruence.
Qed.

Example wbt_same_ok :
  (wbt_same 1 wbt_levels1 && wbt_same 2 wbt_levels2 && wbt_same 3 wbt_levels2
   && wbt_same 0 (repeat 0 30) && wbt_same 1 (wbt_alt 300) && wbt_same 1 []
   && wbt_same 2 [3] && wbt_same 1 (wbt_alt 260 ++ repeat 1 10 ++ wbt_alt 3))%bool = true.
Proof. rewrite !wbt_same_true. reflexivity. Qed.

Print Assumptions wb_inv_new.
Print Assumptions wb_inv_write_at.
Print Assumptions wb_bytes_write.
Print Assumptions wb_bytes_patch.
Print Assumptions wb_patch_i.
Print Assumptions rle_encode_b_eq.
Print Assumptions rle_hp_in_out.
