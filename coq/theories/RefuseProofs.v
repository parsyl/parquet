(** * RefuseProofs: the reader model refuses what it cannot decode (C18, page
    level): fields.go supportedPage and pageData's codec switch. *)
From Coq Require Import List NArith ZArith Lia Bool.
From PQ Require Import Bytes Rle MetaTypes Io Reader.
Import ListNotations.

Lemma supported_page_some ph d r dph :
  supported_page ph d r = Some dph ->
  ph_type ph = PT_DATA_PAGE /\ ph_data ph = Some dph /\ dph_encoding dph = ENC_PLAIN /\
  (d = true -> dph_def_encoding dph = ENC_RLE) /\ (r = true -> dph_rep_encoding dph = ENC_RLE).
Proof.
  unfold supported_page.
  destruct (Z.eqb_spec (ph_type ph) PT_DATA_PAGE) as [Et|]; [|discriminate].
  destruct (ph_data ph) as [x|]; [|discriminate].
  destruct (Z.eqb_spec (dph_encoding x) ENC_PLAIN) as [Ee|]; [|discriminate].
  destruct (d && _) eqn:Hd; [discriminate|]. destruct (r && _) eqn:Hr; [discriminate|].
  intros [= <-]. repeat split; auto; intros ->; apply Z.eqb_eq, negb_false_iff; assumption.
Qed.

Lemma supported_page_none ph d r :
  (forall dph, supported_page ph d r = Some dph -> False) -> supported_page ph d r = None.
Proof. destruct (supported_page ph d r) as [dph|]; [intros H; destruct (H dph eq_refl) | reflexivity]. Qed.

Lemma supported_page_type ph d r :
  ph_type ph <> PT_DATA_PAGE -> supported_page ph d r = None.
Proof.
  intros H. apply supported_page_none. intros dph E.
  exact (H (proj1 (supported_page_some _ _ _ _ E))).
Qed.

Lemma supported_page_nodata ph d r :
  ph_data ph = None -> supported_page ph d r = None.
Proof.
  intros H. apply supported_page_none. intros dph E.
  destruct (supported_page_some _ _ _ _ E) as (_ & E' & _). rewrite H in E'. discriminate E'.
Qed.

Lemma supported_page_encoding ph dph d r :
  ph_data ph = Some dph -> dph_encoding dph <> ENC_PLAIN -> supported_page ph d r = None.
Proof.
  intros H He. apply supported_page_none. intros dph' E.
  destruct (supported_page_some _ _ _ _ E) as (_ & E' & Ee & _). rewrite H in E'. injection E' as <-. exact (He Ee).
Qed.

Lemma supported_page_def_levels ph dph r :
  ph_data ph = Some dph -> dph_def_encoding dph <> ENC_RLE -> supported_page ph true r = None.
Proof.
  intros H He. apply supported_page_none. intros dph' E.
  destruct (supported_page_some _ _ _ _ E) as (_ & E' & _ & Ed & _). rewrite H in E'. injection E' as <-. exact (He (Ed eq_refl)).
Qed.

Lemma supported_page_rep_levels ph dph d :
  ph_data ph = Some dph -> dph_rep_encoding dph <> ENC_RLE -> supported_page ph d true = None.
Proof.
  intros H He. apply supported_page_none. intros dph' E.
  destruct (supported_page_some _ _ _ _ E) as (_ & E' & _ & _ & Er). rewrite H in E'. injection E' as <-. exact (He (Er eq_refl)).
Qed.

Section Codec.
Variable decompress : Z -> bytes -> option bytes.

(** pageData returns the error before reading the body *)
Lemma page_data_unsupported_codec codec ph s :
  codec <> CODEC_SNAPPY -> codec <> CODEC_GZIP -> codec <> CODEC_UNCOMPRESSED ->
  page_data decompress codec ph s = Err.
Proof.
  intros H1 H2 H3. unfold page_data.
  destruct (Z.eqb_spec codec CODEC_SNAPPY) as [E|_]; [contradiction|].
  destruct (Z.eqb_spec codec CODEC_GZIP) as [E|_]; [contradiction|].
  destruct (Z.eqb_spec codec CODEC_UNCOMPRESSED) as [E|_]; [contradiction|].
  reflexivity.
Qed.
End Codec.
