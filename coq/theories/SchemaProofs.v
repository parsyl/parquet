(** * SchemaProofs: the footer schema the writer emits ([Writer.schema_of], the
    path-keyed walk of parquet.go schema()) is the pre-order listing of the
    struct shape, and the validator's [FileSpec.parse_schema] rebuilds the
    shape from it — for shapes whose groups are non-empty and whose sibling
    names are distinct (same-named groups under different parents are fine). *)
From Coq Require Import List NArith ZArith Lia Bool Arith PeanoNat.
From Coq Require Import ZifyN ZifyNat ZifyBool.
From PQ Require Import Bytes Schema Dremel DremelProofs MetaTypes Writer FileSpec.
Import ListNotations.
Local Open Scope N_scope.

(** ** Distinct sibling names *)

Definition name_eqb (a b : bytes) : bool := if list_eq_dec N.eq_dec a b then true else false.

Fixpoint nodupb (l : list bytes) : bool :=
  match l with
  | [] => true
  | x :: r => negb (existsb (name_eqb x) r) && nodupb r
  end.

Fixpoint names_okb (t : ty) : bool :=
  match t with
  | TLeaf _ => true
  | TGroup fs => nodupb (map fname fs) && forallb (fun f : field => names_okb (snd f)) fs
  end.

Lemma name_eqb_eq a b : name_eqb a b = true <-> a = b.
Proof. unfold name_eqb. destruct (list_eq_dec N.eq_dec a b); split; congruence. Qed.

Lemma nodupb_NoDup l : nodupb l = true -> NoDup l.
Proof.
  induction l as [|x r IH]; cbn [nodupb]; intros H; [constructor|].
  apply andb_prop in H. destruct H as [H1 H2]. constructor; [|apply IH; exact H2].
  intros Hin. apply negb_true_iff in H1.
  assert (Hex : existsb (name_eqb x) r = true).
  { apply existsb_exists. exists x. split; [exact Hin|apply name_eqb_eq; reflexivity]. }
  congruence.
Qed.

Lemma names_okb_group fs :
  names_okb (TGroup fs) = true ->
  NoDup (map fname fs) /\ Forall (fun f : field => names_okb (snd f) = true) fs.
Proof.
  cbn [names_okb]. intros H. apply andb_prop in H. destruct H as [H1 H2].
  split; [apply nodupb_NoDup; exact H1 | apply forallb_Forall; exact H2].
Qed.

(** ** Paths *)

Lemma path_eqb_eq a b : path_eqb a b = true <-> a = b.
Proof. unfold path_eqb. destruct (list_eq_dec (list_eq_dec N.eq_dec) a b); split; congruence. Qed.

Lemma path_eqb_refl a : path_eqb a a = true.
Proof. apply path_eqb_eq. reflexivity. Qed.

Lemma existsb_path_in x seen : existsb (path_eqb x) seen = true <-> In x seen.
Proof.
  rewrite existsb_exists. split.
  - intros (y & Hy & He). apply path_eqb_eq in He. subst y. exact Hy.
  - intros H. exists x. split; [exact H|apply path_eqb_refl].
Qed.

Lemma existsb_path_notin x seen : ~ In x seen -> existsb (path_eqb x) seen = false.
Proof.
  intros H. destruct (existsb (path_eqb x) seen) eqn:E; [|reflexivity].
  apply existsb_path_in in E. contradiction.
Qed.

Lemma columns_ty_paths t : forall pth rs,
  Forall (fun c => exists suf rsuf, c_path c = pth ++ suf /\ c_reps c = rs ++ rsuf /\ length suf = length rsuf)
         (columns_ty pth rs t).
Proof.
  induction t as [p| |n rp t' fs IHt IHfs] using ty_fields_ind; intros pth rs.
  - rewrite columns_ty_leaf. constructor; [|constructor]. exists [], []. cbn [c_path c_reps].
    rewrite !app_nil_r. auto.
  - constructor.
  - rewrite columns_ty_cons. apply Forall_app. split; [|apply IHfs].
    eapply Forall_impl; [|apply (IHt (pth ++ [n]) (rs ++ [rp]))].
    cbv beta. intros c (suf & rsuf & Hp & Hr & Hl). exists (n :: suf), (rp :: rsuf).
    rewrite Hp, Hr, <- !app_assoc. cbn [app length]. auto.
Qed.

Lemma columns_ty_nonempty t pth rs : ty_okb t = true -> columns_ty pth rs t <> [].
Proof.
  intros Hok He. pose proof (leaf_count_pos t Hok) as Hpos.
  rewrite <- (columns_ty_length t pth rs), He in Hpos. cbn [length] in Hpos. lia.
Qed.

(** ** [count_children] *)

Definition strict_ext (pre p : list bytes) : bool :=
  path_eqb (firstn (length pre) p) pre && Nat.ltb (length pre) (length p).

Fixpoint seen_after (pre : list bytes) (paths seen : list (list bytes)) : list (list bytes) :=
  match paths with
  | [] => seen
  | p :: r =>
      if strict_ext pre p then
        if existsb (path_eqb (firstn (S (length pre)) p)) seen then seen_after pre r seen
        else seen_after pre r (firstn (S (length pre)) p :: seen)
      else seen_after pre r seen
  end.

Lemma count_children_cons pre p r seen :
  count_children pre (p :: r) seen =
  if strict_ext pre p then
    if existsb (path_eqb (firstn (S (length pre)) p)) seen then count_children pre r seen
    else 1 + count_children pre r (firstn (S (length pre)) p :: seen)
  else count_children pre r seen.
Proof. reflexivity. Qed.

Lemma count_children_app pre a : forall b seen,
  count_children pre (a ++ b) seen =
  count_children pre a seen + count_children pre b (seen_after pre a seen).
Proof.
  induction a as [|p a IH]; intros b seen; [reflexivity|].
  rewrite <- app_comm_cons, !count_children_cons. cbn [seen_after].
  destruct (strict_ext pre p); [|apply IH].
  destruct (existsb (path_eqb (firstn (S (length pre)) p)) seen); [apply IH|].
  rewrite IH. lia.
Qed.

Lemma count_children_old pre a : forall seen,
  Forall (fun p => strict_ext pre p = true -> In (firstn (S (length pre)) p) seen) a ->
  count_children pre a seen = 0 /\ seen_after pre a seen = seen.
Proof.
  induction a as [|p a IH]; intros seen Ha; [split; reflexivity|].
  apply Forall_cons_iff in Ha. destruct Ha as [Hp Ha].
  rewrite count_children_cons. cbn [seen_after].
  destruct (strict_ext pre p); [rewrite (proj2 (existsb_path_in _ seen) (Hp eq_refl))|]; apply IH; exact Ha.
Qed.

Lemma count_children_nomatch pre a seen :
  Forall (fun p => strict_ext pre p = false) a ->
  count_children pre a seen = 0 /\ seen_after pre a seen = seen.
Proof.
  intros Ha. apply count_children_old. eapply Forall_impl; [|exact Ha].
  cbv beta. intros p -> . discriminate.
Qed.

Lemma count_children_child_new pre ch a seen :
  a <> [] ->
  Forall (fun p => strict_ext pre p = true /\ firstn (S (length pre)) p = ch) a ->
  ~ In ch seen ->
  count_children pre a seen = 1 /\ seen_after pre a seen = ch :: seen.
Proof.
  intros Hne Ha Hnin. destruct a as [|p a]; [congruence|].
  apply Forall_cons_iff in Ha. destruct Ha as [[Hp Hch] Ha].
  rewrite count_children_cons. cbn [seen_after]. rewrite Hp, Hch, (existsb_path_notin ch seen Hnin).
  destruct (count_children_old pre a (ch :: seen)) as [H1 H2].
  - eapply Forall_impl; [|exact Ha]. cbv beta. intros q [_ ->] _. left. reflexivity.
  - rewrite H1, H2. split; reflexivity.
Qed.

Lemma strict_ext_app (pre : list bytes) x suf : strict_ext pre (pre ++ x :: suf) = true.
Proof.
  unfold strict_ext. rewrite firstn_app_exact, path_eqb_refl, app_length. cbn [length andb].
  apply Nat.ltb_lt. lia.
Qed.

Lemma child_app {A} (pre : list A) x suf : firstn (S (length pre)) (pre ++ x :: suf) = pre ++ [x].
Proof.
  replace (S (length pre)) with (length pre + 1)%nat by lia.
  rewrite firstn_app_2. reflexivity.
Qed.

Lemma count_children_top pth rs : forall gs seen,
  Forall (fun f : field => ty_okb (snd f) = true) gs -> NoDup (map fname gs) ->
  (forall n, In n (map fname gs) -> ~ In (pth ++ [n]) seen) ->
  count_children pth (map c_path (columns_ty pth rs (TGroup gs))) seen = N.of_nat (length gs).
Proof.
  induction gs as [|[[n rp] t'] gs IH]; intros seen Hok Hnd Hseen; [reflexivity|].
  rewrite columns_ty_cons, map_app, count_children_app.
  pose proof (Forall_inv Hok) as Hok1. pose proof (Forall_inv_tail Hok) as Hok'. cbn [snd] in Hok1.
  cbn [map fname fst] in Hnd, Hseen. pose proof (NoDup_cons_iff n (map fname gs)) as Hc.
  apply Hc in Hnd. destruct Hnd as [Hn Hnd'].
  destruct (count_children_child_new pth (pth ++ [n])
              (map c_path (columns_ty (pth ++ [n]) (rs ++ [rp]) t')) seen) as [H1 H2].
  - intros He. apply map_eq_nil in He. revert He. apply columns_ty_nonempty. exact Hok1.
  - apply Forall_map. eapply Forall_impl; [|apply columns_ty_paths].
    cbv beta. intros c (suf & _ & Hp & _). rewrite Hp, <- app_assoc. cbn [app].
    split; [apply strict_ext_app|apply child_app].
  - apply Hseen. left. reflexivity.
  - rewrite H1, H2, IH; [cbn [length]; lia|exact Hok'|exact Hnd'|].
    intros n' Hn' [He|Hin].
    + apply app_inv_head in He. injection He as He. subst n'. contradiction.
    + apply (Hseen n'); [right; exact Hn'|exact Hin].
Qed.

Lemma firstn_under_neq k pth (n0 n : bytes) suf rel :
  firstn k (pth ++ n0 :: suf) = pth ++ n :: rel -> n0 = n.
Proof.
  intros H. apply (f_equal (skipn (length pth))) in H.
  rewrite skipn_firstn_comm, !skipn_app_exact in H.
  destruct (k - length pth)%nat; cbn [firstn] in H; [discriminate|]. injection H as H _. exact H.
Qed.

Lemma strict_ext_other pth (n0 n : bytes) suf rel :
  n0 <> n -> strict_ext (pth ++ n :: rel) (pth ++ n0 :: suf) = false.
Proof.
  intros Hne. unfold strict_ext.
  destruct (path_eqb (firstn (length (pth ++ n :: rel)) (pth ++ n0 :: suf)) (pth ++ n :: rel)) eqn:E;
    [|reflexivity].
  apply path_eqb_eq in E. apply firstn_under_neq in E. contradiction.
Qed.

Lemma field_nomatch pth rs n rel n0 rp0 t0 :
  n0 <> n ->
  Forall (fun p => strict_ext (pth ++ n :: rel) p = false)
         (map c_path (columns_ty (pth ++ [n0]) (rs ++ [rp0]) t0)).
Proof.
  intros Hne. apply Forall_map. eapply Forall_impl; [|apply columns_ty_paths].
  cbv beta. intros c (suf & _ & Hp & _). rewrite Hp, <- app_assoc. cbn [app].
  apply strict_ext_other. exact Hne.
Qed.

Lemma fields_nomatch pth rs n rel fs :
  ~ In n (map fname fs) ->
  Forall (fun p => strict_ext (pth ++ n :: rel) p = false) (map c_path (columns_ty pth rs (TGroup fs))).
Proof.
  induction fs as [|[[n0 rp0] t0] fs IH]; intros Hn; [constructor|].
  rewrite columns_ty_cons, map_app. apply Forall_app. split.
  - apply field_nomatch. intros ->. apply Hn. left. reflexivity.
  - apply IH. intros Hin. apply Hn. right. exact Hin.
Qed.

Lemma count_children_descend pth rs n rel rp t' : forall fs,
  NoDup (map fname fs) -> In (n, rp, t') fs ->
  count_children (pth ++ n :: rel) (map c_path (columns_ty pth rs (TGroup fs))) [] =
  count_children (pth ++ n :: rel) (map c_path (columns_ty (pth ++ [n]) (rs ++ [rp]) t')) [].
Proof.
  induction fs as [|[[n0 rp0] t0] fs IH]; intros Hnd Hin; [contradiction|].
  cbn [map fname fst] in Hnd. apply NoDup_cons_iff in Hnd. destruct Hnd as [Hn0 Hnd].
  rewrite columns_ty_cons, map_app, count_children_app.
  destruct Hin as [Heq|Hin].
  - injection Heq as -> -> ->.
    rewrite (proj1 (count_children_nomatch _ _ _ (fields_nomatch pth rs n rel fs Hn0))). lia.
  - assert (Hne : n0 <> n).
    { intros ->. apply Hn0. apply in_map_iff. exists (n, rp, t'). split; [reflexivity|exact Hin]. }
    destruct (count_children_nomatch _ _ [] (field_nomatch pth rs n rel n0 rp0 t0 Hne)) as [H0 H1].
    rewrite H0, H1, N.add_0_l. apply IH; assumption.
Qed.

(** ** The pre-order listing of a shape *)

Definition gelem (paths : list (list bytes)) (path : list bytes) (reps : list rept) (i : nat) : schema_element :=
  {| se_type := None; se_type_length := None;
     se_repetition := Some (rept_code (nth i reps Req));
     se_name := nth i path [];
     se_num_children := Some (Z.of_N (count_children (firstn (S i) path) paths []));
     se_converted := None; se_scale := None; se_precision := None; se_field_id := None |}.

Fixpoint elems_ty (paths : list (list bytes)) (pth : list bytes) (rs : list rept) (t : ty) {struct t}
  : list schema_element :=
  match t with
  | TLeaf p => [leaf_element {| c_path := pth; c_reps := rs; c_prim := p |}]
  | TGroup fs =>
      gelem paths pth rs (length pth - 1)
      :: (fix go (fs : list (bytes * rept * ty)) : list schema_element :=
            match fs with
            | [] => []
            | (n, rp, t') :: fs' => elems_ty paths (pth ++ [n]) (rs ++ [rp]) t' ++ go fs'
            end) fs
  end.

Fixpoint elems_fields (paths : list (list bytes)) (pth : list bytes) (rs : list rept) (fs : list field)
  : list schema_element :=
  match fs with
  | [] => []
  | (n, rp, t') :: fs' => elems_ty paths (pth ++ [n]) (rs ++ [rp]) t' ++ elems_fields paths pth rs fs'
  end.

Lemma elems_ty_leaf paths pth rs p :
  elems_ty paths pth rs (TLeaf p) = [leaf_element {| c_path := pth; c_reps := rs; c_prim := p |}].
Proof. reflexivity. Qed.

Lemma elems_ty_group paths pth rs fs :
  elems_ty paths pth rs (TGroup fs) = gelem paths pth rs (length pth - 1) :: elems_fields paths pth rs fs.
Proof.
  cbn [elems_ty]. f_equal.
  induction fs as [|[[n rp] t'] fs IH]; [reflexivity|]. cbn [elems_fields]. rewrite <- IH. reflexivity.
Qed.

Lemma elems_fields_cons paths pth rs n rp t' fs :
  elems_fields paths pth rs ((n, rp, t') :: fs) =
  elems_ty paths (pth ++ [n]) (rs ++ [rp]) t' ++ elems_fields paths pth rs fs.
Proof. reflexivity. Qed.

(** ** The listing, evaluated *)

(** The footer schema as a plain pre-order listing: the number of children of
    a group is the number of its fields. *)
Definition sleaf (n : bytes) (rp : rept) (p : prim) : schema_element :=
  {| se_type := Some (prim_type p); se_type_length := None;
     se_repetition := Some (rept_code rp); se_name := n; se_num_children := None;
     se_converted := prim_converted p; se_scale := None; se_precision := None; se_field_id := None |}.

Definition sgroup (n : bytes) (rp : rept) (k : nat) : schema_element :=
  {| se_type := None; se_type_length := None;
     se_repetition := Some (rept_code rp); se_name := n;
     se_num_children := Some (Z.of_N (N.of_nat k));
     se_converted := None; se_scale := None; se_precision := None; se_field_id := None |}.

Fixpoint pre_ty (n : bytes) (rp : rept) (t : ty) {struct t} : list schema_element :=
  match t with
  | TLeaf p => [sleaf n rp p]
  | TGroup fs =>
      sgroup n rp (length fs)
      :: (fix go (fs : list (bytes * rept * ty)) : list schema_element :=
            match fs with
            | [] => []
            | (n', rp', t') :: fs' => pre_ty n' rp' t' ++ go fs'
            end) fs
  end.

Fixpoint pre_fields (fs : list field) : list schema_element :=
  match fs with
  | [] => []
  | (n, rp, t) :: fs' => pre_ty n rp t ++ pre_fields fs'
  end.

Lemma pre_ty_group n rp fs : pre_ty n rp (TGroup fs) = sgroup n rp (length fs) :: pre_fields fs.
Proof. reflexivity. Qed.

Lemma pre_fields_cons n rp t fs : pre_fields ((n, rp, t) :: fs) = pre_ty n rp t ++ pre_fields fs.
Proof. reflexivity. Qed.

Definition sroot (k : nat) : schema_element :=
  {| se_type := None; se_type_length := None; se_repetition := None; se_name := root_name;
     se_num_children := Some (Z.of_N (N.of_nat k));
     se_converted := None; se_scale := None; se_precision := None; se_field_id := None |}.

Lemma num_children_pos k : (0 < k)%nat -> (0 <? Z.of_N (N.of_nat k))%Z = true.
Proof. lia. Qed.

Lemma num_children_nat k : Z.to_nat (Z.of_N (N.of_nat k)) = k.
Proof. lia. Qed.

Lemma leaf_element_snoc pth rs n rp p :
  leaf_element {| c_path := pth ++ [n]; c_reps := rs ++ [rp]; c_prim := p |} = sleaf n rp p.
Proof. unfold leaf_element, sleaf. cbn [c_path c_reps c_prim]. rewrite !last_last. reflexivity. Qed.

Lemma gelem_last paths pth rs n rp k :
  length pth = length rs -> count_children (pth ++ [n]) paths [] = N.of_nat k ->
  gelem paths (pth ++ [n]) (rs ++ [rp]) (length (pth ++ [n]) - 1) = sgroup n rp k.
Proof.
  intros Hl Hc. unfold gelem, sgroup.
  replace (length (pth ++ [n]) - 1)%nat with (length pth) by (rewrite app_length; cbn [length]; lia).
  rewrite nth_middle, firstn_all2 by (rewrite app_length; cbn [length]; lia).
  rewrite Hl, nth_middle, Hc. reflexivity.
Qed.

(** Below the field [f] of the node at [pth], counting children among all
    paths is counting them among the paths of [f]'s own columns. *)
Definition inv_field (paths : list (list bytes)) (pth : list bytes) (rs : list rept) (f : field) : Prop :=
  let '(n, rp, t) := f in
  forall rel,
    count_children ((pth ++ [n]) ++ rel) paths [] =
    count_children ((pth ++ [n]) ++ rel) (map c_path (columns_ty (pth ++ [n]) (rs ++ [rp]) t)) [].

Definition pre_stmt (t : ty) : Prop :=
  match t with
  | TLeaf _ => True
  | TGroup kids =>
      forall paths pth rs,
        length pth = length rs ->
        Forall (fun f : field => ty_okb (snd f) = true) kids ->
        Forall (fun f : field => names_okb (snd f) = true) kids ->
        Forall (inv_field paths pth rs) kids ->
        elems_fields paths pth rs kids = pre_fields kids
  end.

(** Evaluating [count_children] in every group of the listing: the node's own
    paths give its number of fields ([count_children_top]), and the invariant
    passes to its fields ([count_children_descend]). *)
Lemma elems_pre t : pre_stmt t.
Proof.
  induction t as [p| |n rp t' fs Ht' IHfs] using ty_fields_ind;
    [exact I|intros paths pth rs _ _ _ _; reflexivity|].
  intros paths pth rs Hlen Hok Hnm Hinv.
  apply Forall_cons_iff in Hok. destruct Hok as [Hok1 Hok'].
  apply Forall_cons_iff in Hnm. destruct Hnm as [Hnm1 Hnm'].
  apply Forall_cons_iff in Hinv. destruct Hinv as [Hinv1 Hinv'].
  cbn [snd] in Hok1, Hnm1. cbn beta iota in Hinv1.
  rewrite elems_fields_cons, pre_fields_cons, (IHfs paths pth rs Hlen Hok' Hnm' Hinv').
  f_equal. destruct t' as [p|kids].
  - rewrite elems_ty_leaf, leaf_element_snoc. reflexivity.
  - apply ty_okb_group in Hok1. destruct Hok1 as [_ Hkok].
    apply names_okb_group in Hnm1. destruct Hnm1 as [Hknd Hknm].
    rewrite elems_ty_group, pre_ty_group, (gelem_last paths pth rs n rp (length kids) Hlen).
    + f_equal. apply (Ht' paths (pth ++ [n]) (rs ++ [rp])); try assumption.
      * rewrite !app_length, Hlen. reflexivity.
      * apply Forall_forall. intros [[n2 rp2] t2] Hin rel. rewrite <- (app_assoc (pth ++ [n]) [n2] rel). cbn [app].
        rewrite (Hinv1 (n2 :: rel)). apply count_children_descend; assumption.
    + rewrite <- (app_nil_r (pth ++ [n])), (Hinv1 []), app_nil_r.
      apply count_children_top; [exact Hkok|exact Hknd|]. intros n' _ [].
Qed.

(** ** [parse_fields] reads the listing back *)

Lemma rept_of_code_code rp : rept_of_code (Some (rept_code rp)) = Some rp.
Proof. destruct rp; reflexivity. Qed.

Lemma prim_of_schema_prim p : prim_of_schema (prim_type p) (prim_converted p) = Some p.
Proof. destruct p; reflexivity. Qed.

Lemma parse_fields_leaf f m n rp p rest :
  parse_fields (S f) (S m) (sleaf n rp p :: rest) =
  match parse_fields f m rest with
  | inr (fs, rest') => inr ((n, rp, TLeaf p) :: fs, rest')
  | inl er => inl er
  end.
Proof.
  cbn [parse_fields sleaf se_repetition se_type se_num_children se_converted se_name].
  rewrite rept_of_code_code, prim_of_schema_prim. reflexivity.
Qed.

Lemma parse_fields_group f m n rp k rest :
  (0 < k)%nat ->
  parse_fields (S f) (S m) (sgroup n rp k :: rest) =
  match parse_fields f k rest with
  | inr (kids, rest') =>
      match parse_fields f m rest' with
      | inr (fs, rest'') => inr ((n, rp, TGroup kids) :: fs, rest'')
      | inl er => inl er
      end
  | inl er => inl er
  end.
Proof.
  intros Hk. cbn [parse_fields sgroup se_repetition se_type se_num_children se_converted se_name].
  rewrite rept_of_code_code, (num_children_pos k Hk), num_children_nat. reflexivity.
Qed.

Definition parse_stmt (t : ty) : Prop :=
  match t with
  | TLeaf _ => True
  | TGroup kids =>
      Forall (fun f : field => ty_okb (snd f) = true) kids ->
      forall fuel rest,
        (length (pre_fields kids) < fuel)%nat ->
        parse_fields fuel (length kids) (pre_fields kids ++ rest) = inr (kids, rest)
  end.

Lemma parse_pre t : parse_stmt t.
Proof.
  induction t as [p| |n rp t' fs Ht' IHfs] using ty_fields_ind; [exact I| |];
    intros Hok fuel rest Hfuel; (destruct fuel as [|f]; [lia|]); [reflexivity|].
  apply Forall_cons_iff in Hok. destruct Hok as [Hok1 Hok']. cbn [snd] in Hok1.
  rewrite pre_fields_cons, app_length in Hfuel. rewrite pre_fields_cons, <- app_assoc. cbn [length].
  destruct t' as [p|kids].
  - cbn [pre_ty app length] in *. rewrite parse_fields_leaf, (IHfs Hok' f rest) by lia. reflexivity.
  - rewrite pre_ty_group in *. cbn [app length] in *.
    apply ty_okb_group in Hok1. destruct Hok1 as [Hkne Hkok].
    rewrite parse_fields_group by (destruct kids; [congruence|cbn [length]; lia]).
    rewrite (Ht' Hkok f (pre_fields fs ++ rest)), (IHfs Hok' f rest) by lia. reflexivity.
Qed.

(** ** The walk of [schema_of] *)

Definition gstep (paths : list (list bytes)) (c : col)
    (st : list schema_element * list (list bytes)) (i : nat) : list schema_element * list (list bytes) :=
  let '(out, seen) := st in
  let pre := firstn (S i) (c_path c) in
  if existsb (path_eqb pre) seen then (out, seen)
  else (out ++ [gelem paths (c_path c) (c_reps c) i], pre :: seen).

Lemma fold_left_ext' {A B} (f g : A -> B -> A) (l : list B) :
  (forall a x, f a x = g a x) -> forall a, fold_left f l a = fold_left g l a.
Proof.
  intros H. induction l as [|x l IH]; intros a; [reflexivity|]. cbn [fold_left]. rewrite H. apply IH.
Qed.

Lemma group_elements_eq paths c seen :
  group_elements paths c seen =
  fold_left (gstep paths c) (seq 0 (length (c_path c) - 1)) ([], seen).
Proof.
  unfold group_elements. apply fold_left_ext'. intros [out sn] i. reflexivity.
Qed.

Lemma gfold_seen paths c is : forall out seen,
  (forall i, In i is -> In (firstn (S i) (c_path c)) seen) ->
  fold_left (gstep paths c) is (out, seen) = (out, seen).
Proof.
  induction is as [|i is IH]; intros out seen H; [reflexivity|].
  cbn [fold_left gstep]. rewrite (proj2 (existsb_path_in _ seen) (H i (or_introl eq_refl))).
  apply IH. intros j Hj. apply H. right. exact Hj.
Qed.

Lemma gfold_unseen paths c m : forall k out seen,
  (k + m <= length (c_path c))%nat ->
  (forall i, (k <= i < k + m)%nat -> ~ In (firstn (S i) (c_path c)) seen) ->
  fold_left (gstep paths c) (seq k m) (out, seen) =
  (out ++ map (gelem paths (c_path c) (c_reps c)) (seq k m),
   rev (map (fun i => firstn (S i) (c_path c)) (seq k m)) ++ seen).
Proof.
  induction m as [|m IH]; intros k out seen Hlen Hun.
  - cbn [seq map fold_left rev app]. rewrite app_nil_r. reflexivity.
  - cbn [seq fold_left gstep]. rewrite (existsb_path_notin _ seen (Hun k ltac:(lia))).
    rewrite IH.
    + cbn [map rev]. rewrite <- !app_assoc. reflexivity.
    + lia.
    + intros i Hi [He|Hin].
      * apply (f_equal (@length _)) in He. rewrite !firstn_length in He. lia.
      * apply (Hun i); [lia|exact Hin].
Qed.

Definition step (paths : list (list bytes)) (st : list schema_element * list (list bytes)) (c : col)
  : list schema_element * list (list bytes) :=
  let '(out, seen) := st in
  let '(gs, seen') := group_elements paths c seen in
  (out ++ gs ++ [leaf_element c], seen').

Definition emit (paths : list (list bytes)) (cols : list col) (seen : list (list bytes)) :=
  fold_left (step paths) cols ([], seen).

Definition root_elem (paths : list (list bytes)) : schema_element :=
  {| se_type := None; se_type_length := None; se_repetition := None; se_name := root_name;
     se_num_children := Some (Z.of_N (count_children [] paths []));
     se_converted := None; se_scale := None; se_precision := None; se_field_id := None |}.

Lemma schema_of_eq cols :
  schema_of cols = root_elem (map c_path cols) :: fst (emit (map c_path cols) cols []).
Proof.
  unfold schema_of, emit, root_elem. cbv zeta. do 2 f_equal.
  apply fold_left_ext'. intros [out sn] c. reflexivity.
Qed.

Lemma fold_step_out paths cols : forall out seen,
  fold_left (step paths) cols (out, seen) =
  (out ++ fst (emit paths cols seen), snd (emit paths cols seen)).
Proof.
  unfold emit. induction cols as [|c cols IH]; intros out seen.
  - cbn [fold_left fst snd]. rewrite app_nil_r. reflexivity.
  - cbn [fold_left step]. destruct (group_elements paths c seen) as [gs seen'].
    rewrite IH. rewrite (IH ([] ++ gs ++ [leaf_element c])). cbn [fst snd app].
    rewrite <- !app_assoc. reflexivity.
Qed.

Lemma emit_app paths a b seen :
  emit paths (a ++ b) seen =
  (fst (emit paths a seen) ++ fst (emit paths b (snd (emit paths a seen))),
   snd (emit paths b (snd (emit paths a seen)))).
Proof.
  unfold emit at 1. rewrite fold_left_app. fold (emit paths a seen).
  destruct (emit paths a seen) as [out1 seen1]. cbn [fst snd]. apply fold_step_out.
Qed.

Lemma emit_single paths c seen :
  emit paths [c] seen =
  (fst (group_elements paths c seen) ++ [leaf_element c], snd (group_elements paths c seen)).
Proof.
  unfold emit. cbn [fold_left step]. destruct (group_elements paths c seen) as [gs seen'].
  reflexivity.
Qed.

Definition anc_elems (paths : list (list bytes)) (path : list bytes) (reps : list rept) (k m : nat) :=
  map (gelem paths path reps) (seq k m).
Definition anc_paths (path : list bytes) (k m : nat) : list (list bytes) :=
  map (fun i => firstn (S i) path) (seq k m).

Lemma firstn_snoc_le {A} (l : list A) x k : (k <= length l)%nat -> firstn k (l ++ [x]) = firstn k l.
Proof. intros H. rewrite firstn_app. replace (k - length l)%nat with 0%nat by lia. cbn [firstn]. apply app_nil_r. Qed.

Lemma firstn_eq_le {A} (p q : list A) i j :
  (i <= j)%nat -> firstn j q = p -> firstn i q = firstn i p.
Proof. intros H <-. rewrite firstn_firstn, (Nat.min_l i j H). reflexivity. Qed.

Lemma gelem_snoc paths pth rs n rp i :
  length pth = length rs -> (i < length pth)%nat ->
  gelem paths (pth ++ [n]) (rs ++ [rp]) i = gelem paths pth rs i.
Proof.
  intros Hl Hi. unfold gelem. rewrite !app_nth1 by lia. rewrite firstn_snoc_le by lia. reflexivity.
Qed.

(** The state of the walk at a node below the group at [par]: the first [k]
    groups on [par] have been emitted ([ancs_seen]), and nothing seen so far
    passes through the next one on the way to [p] ([untouched]). *)
Definition ancs_seen (parent : list bytes) (k : nat) (seen : list (list bytes)) : Prop :=
  forall i, (i < k)%nat -> In (firstn (S i) parent) seen.
Definition untouched (k : nat) (p : list bytes) (seen : list (list bytes)) : Prop :=
  forall q, In q seen -> firstn (S k) q <> firstn (S k) p.

(** The first column below the field [n] of [par] emits the groups of [par]
    that are still missing. *)
Lemma group_elements_spec paths par prs n rp p k seen :
  length par = length prs -> (k <= length par)%nat ->
  ancs_seen par k seen -> untouched k (par ++ [n]) seen ->
  group_elements paths {| c_path := par ++ [n]; c_reps := prs ++ [rp]; c_prim := p |} seen =
  (anc_elems paths par prs k (length par - k), rev (anc_paths par k (length par - k)) ++ seen).
Proof.
  intros Hlen Hk Hseen Hfresh. rewrite group_elements_eq. cbn [c_path c_reps].
  rewrite last_length, Nat.sub_succ, Nat.sub_0_r.
  replace (length par) with (k + (length par - k))%nat at 1 by lia.
  rewrite seq_app, fold_left_app, gfold_seen.
  - cbn [Nat.add c_path]. rewrite gfold_unseen; cbn [c_path c_reps app].
    + f_equal; [|f_equal; f_equal]; apply map_ext_in; intros i Hi; apply in_seq in Hi.
      * apply gelem_snoc; [exact Hlen|lia].
      * apply firstn_snoc_le. lia.
    + rewrite last_length. lia.
    + intros i Hi Hin. apply (Hfresh _ Hin). rewrite firstn_firstn. f_equal. lia.
  - intros i Hi. apply in_seq in Hi. cbn [c_path]. rewrite firstn_snoc_le by lia. apply Hseen. lia.
Qed.

Definition emit_ty_stmt (paths : list (list bytes)) (t : ty) : Prop :=
  forall par prs n rp k seen,
    length par = length prs -> ty_okb t = true -> names_okb t = true ->
    (k <= length par)%nat -> ancs_seen par k seen -> untouched k (par ++ [n]) seen ->
    exists new,
      emit paths (columns_ty (par ++ [n]) (prs ++ [rp]) t) seen =
        (anc_elems paths par prs k (length par - k) ++ elems_ty paths (par ++ [n]) (prs ++ [rp]) t,
         new ++ seen) /\
      ancs_seen par (length par) (new ++ seen) /\
      (forall q, In q new ->
         (exists i, (k <= i < length par)%nat /\ q = firstn (S i) par) \/
         firstn (S (length par)) q = par ++ [n]).

Definition emit_fields_stmt (paths : list (list bytes)) (fs : list field) : Prop :=
  forall par prs k seen,
    length par = length prs ->
    Forall (fun f : field => ty_okb (snd f) = true) fs ->
    Forall (fun f : field => names_okb (snd f) = true) fs ->
    NoDup (map fname fs) ->
    (k <= length par)%nat -> (fs <> [] \/ k = length par) ->
    ancs_seen par k seen ->
    (forall n, In n (map fname fs) -> untouched k (par ++ [n]) seen) ->
    exists new,
      emit paths (columns_ty par prs (TGroup fs)) seen =
        (anc_elems paths par prs k (length par - k) ++ elems_fields paths par prs fs, new ++ seen) /\
      ancs_seen par (length par) (new ++ seen) /\
      (forall q, In q new ->
         (exists i, (k <= i < length par)%nat /\ q = firstn (S i) par) \/
         (exists n, In n (map fname fs) /\ firstn (S (length par)) q = par ++ [n])).

Lemma emit_fields_of paths fs :
  Forall (fun f : field => emit_ty_stmt paths (snd f)) fs -> emit_fields_stmt paths fs.
Proof.
  induction 1 as [|[[n rp] t'] fs Ht' Hfs IH];
    intros par prs k seen Hlen Hok Hnm Hnd Hk Hne Hseen Hfresh.
  - destruct Hne as [Hne| ->]; [congruence|].
    exists []. rewrite columns_ty_nil, Nat.sub_diag.
    split; [reflexivity|]. split; [exact Hseen|]. intros q [].
  - apply Forall_cons_iff in Hok. destruct Hok as [Hok1 Hok'].
    apply Forall_cons_iff in Hnm. destruct Hnm as [Hnm1 Hnm'].
    cbn [snd] in Ht', Hok1, Hnm1. cbn [map fname fst] in Hnd, Hfresh. apply NoDup_cons_iff in Hnd. destruct Hnd as [Hn Hnd'].
    destruct (Ht' par prs n rp k seen Hlen Hok1 Hnm1 Hk Hseen (Hfresh n (or_introl eq_refl)))
      as (new1 & He1 & Hanc1 & Hnew1).
    (* the later fields find every group of [par] emitted, and no child but [n] touched *)
    destruct (IH par prs (length par) (new1 ++ seen) Hlen Hok' Hnm' Hnd' (le_n _)
                (or_intror eq_refl) Hanc1) as (new2 & He2 & _ & Hnew2).
    + intros n' Hn' q Hq He. rewrite child_app in He. apply in_app_or in Hq. destruct Hq as [Hq|Hq].
      * destruct (Hnew1 q Hq) as [(i & Hi & ->)|Hq1].
        -- apply (f_equal (@length _)) in He.
           rewrite firstn_firstn, firstn_length, last_length in He. lia.
        -- rewrite Hq1 in He. apply app_inv_head in He. injection He as <-. contradiction.
      * apply (Hfresh n' (or_intror Hn') q Hq). exact (firstn_eq_le _ _ _ _ (le_n_S _ _ Hk) He).
    + rewrite Nat.sub_diag in He2.
      exists (new2 ++ new1). rewrite columns_ty_cons, emit_app, He1. cbn [fst snd].
      rewrite He2. cbn [fst snd anc_elems seq map app]. rewrite elems_fields_cons, <- !app_assoc.
      split; [reflexivity|]. split.
      * intros i Hi. apply in_or_app. right. apply Hanc1. exact Hi.
      * intros q Hq. apply in_app_or in Hq. destruct Hq as [Hq|Hq].
        -- destruct (Hnew2 q Hq) as [(i & Hi & _)|(n' & Hn' & Hq')]; [lia|].
           right. exists n'. split; [right; exact Hn'|exact Hq'].
        -- destruct (Hnew1 q Hq) as [Hq1|Hq1]; [left; exact Hq1|].
           right. exists n. split; [left; reflexivity|exact Hq1].
Qed.

Lemma emit_ty_all paths t : emit_ty_stmt paths t.
Proof.
  induction t as [p|fs IH] using ty_ind'; intros par prs n rp k seen Hlen Hok Hnm Hk Hseen Hfresh.
  - rewrite columns_ty_leaf, emit_single, (group_elements_spec paths par prs n rp p k seen) by assumption.
    exists (rev (anc_paths par k (length par - k))). cbn [fst snd].
    split; [reflexivity|]. split.
    + intros i Hi. apply in_or_app. destruct (Nat.lt_ge_cases i k) as [Hlt|Hge].
      * right. apply Hseen. exact Hlt.
      * left. apply in_rev. rewrite rev_involutive.
        apply in_map_iff. exists i. split; [reflexivity|]. apply in_seq. lia.
    + intros q Hq. left. apply in_rev, in_map_iff in Hq.
      destruct Hq as (i & <- & Hi). apply in_seq in Hi. exists i. split; [lia|reflexivity].
  - apply ty_okb_group in Hok. destruct Hok as [Hne Hok].
    apply names_okb_group in Hnm. destruct Hnm as [Hnd Hnm].
    pose proof (last_length par n) as Hl.
    destruct (emit_fields_of paths fs IH (par ++ [n]) (prs ++ [rp]) k seen) as (new & He & Hanc & Hnew);
      try assumption.
    + rewrite !last_length, Hlen. reflexivity.
    + lia.
    + left. exact Hne.
    + intros i Hi. rewrite firstn_snoc_le by lia. apply Hseen. exact Hi.
    + intros n' _ q Hq. rewrite firstn_snoc_le by lia. apply Hfresh. exact Hq.
    + exists new. rewrite Hl in *. split; [|split].
      * rewrite He, elems_ty_group, Hl. f_equal.
        replace (S (length par) - k)%nat with (S (length par - k)) by lia.
        unfold anc_elems. rewrite seq_S, map_app, <- app_assoc. cbn [map app].
        replace (k + (length par - k))%nat with (length par) by lia.
        rewrite Nat.sub_succ, Nat.sub_0_r. f_equal.
        apply map_ext_in. intros i Hi. apply in_seq in Hi. apply gelem_snoc; [exact Hlen|lia].
      * intros i Hi. rewrite <- (firstn_snoc_le par n) by lia. apply Hanc. lia.
      * intros q Hq. destruct (Hnew q Hq) as [(i & Hi & ->)|(n' & _ & Hq')].
        -- destruct (Nat.eq_dec i (length par)) as [-> |Hi'].
           ++ right. rewrite firstn_firstn, Nat.min_id. apply child_app.
           ++ left. exists i. split; [lia|]. apply firstn_snoc_le. lia.
        -- right. rewrite (firstn_eq_le _ _ _ _ (Nat.le_succ_diag_r _) Hq'), <- app_assoc.
           apply child_app.
Qed.

(** ** The footer schema of a shape *)

Theorem schema_of_columns fs :
  ty_okb (TGroup fs) = true -> names_okb (TGroup fs) = true ->
  schema_of (columns fs) =
  root_elem (map c_path (columns fs)) :: elems_fields (map c_path (columns fs)) [] [] fs.
Proof.
  intros Hok Hnm. rewrite schema_of_eq. f_equal.
  apply ty_okb_group in Hok. destruct Hok as [Hne Hok].
  apply names_okb_group in Hnm. destruct Hnm as [Hnd Hnm].
  set (paths := map c_path (columns fs)).
  assert (HIH : Forall (fun f : field => emit_ty_stmt paths (snd f)) fs).
  { apply Forall_forall. intros f _. apply emit_ty_all. }
  destruct (emit_fields_of paths fs HIH [] [] 0%nat [] eq_refl Hok Hnm Hnd (le_n _) (or_introl Hne))
    as (new & He & _ & _).
  - intros i Hi. lia.
  - intros n _ q [].
  - unfold columns. rewrite He. reflexivity.
Qed.

Theorem schema_of_pre fs :
  ty_okb (TGroup fs) = true -> names_okb (TGroup fs) = true ->
  schema_of (columns fs) = sroot (length fs) :: pre_fields fs.
Proof.
  intros Hok Hnm. rewrite (schema_of_columns fs Hok Hnm).
  apply ty_okb_group in Hok. destruct Hok as [Hne Hok].
  apply names_okb_group in Hnm. destruct Hnm as [Hnd Hnm].
  unfold root_elem, sroot, columns.
  rewrite (count_children_top [] [] fs [] Hok Hnd) by (intros n _ []). f_equal.
  apply (elems_pre (TGroup fs) _ [] [] eq_refl Hok Hnm).
  apply Forall_forall. intros [[n rp] t'] Hin rel.
  apply (count_children_descend [] [] n rel rp t' fs Hnd Hin).
Qed.

Theorem parse_schema_of fs :
  ty_okb (TGroup fs) = true -> names_okb (TGroup fs) = true ->
  parse_schema (schema_of (columns fs)) = inr fs.
Proof.
  intros Hok Hnm. rewrite (schema_of_pre fs Hok Hnm).
  apply ty_okb_group in Hok. destruct Hok as [Hne Hok].
  unfold parse_schema, sroot. cbn [se_type se_num_children].
  rewrite num_children_pos, num_children_nat by (destruct fs; [congruence|cbn [length]; lia]).
  rewrite <- (app_nil_r (pre_fields fs)) at 2.
  rewrite (parse_pre (TGroup fs) Hok); [reflexivity|]. cbn [length]. lia.
Qed.

(** the condition is needed: two siblings with the same name *)
Example parse_schema_dup_refuted :
  let fs := [ ([1], Opt, TLeaf PInt64); ([1], Req, TLeaf PString) ] in
  ty_okb (TGroup fs) = true /\ parse_schema (schema_of (columns fs)) = inl ESchemaLeftover.
Proof. vm_compute. split; reflexivity. Qed.

Example parse_schema_dup_group_wrong :
  let fs := [ ([1], Opt, TGroup [ ([9], Rep, TLeaf PInt64) ]); ([2], Req, TLeaf PString);
              ([1], Req, TGroup [ ([8], Opt, TLeaf PString) ]) ] in
  parse_schema (schema_of (columns fs)) =
  inr [ ([1], Opt, TGroup [ ([9], Rep, TLeaf PInt64); ([2], Req, TLeaf PString) ]);
        ([8], Opt, TLeaf PString) ].
Proof. vm_compute. reflexivity. Qed.

Example parse_schema_same_name_ok :
  let fs := [ ([1], Opt, TGroup [ ([9], Rep, TLeaf PInt64); ([1], Req, TGroup [ ([9], Opt, TLeaf PString) ]) ]);
              ([2], Rep, TGroup [ ([9], Rep, TLeaf PBool); ([1], Req, TGroup [ ([9], Opt, TLeaf PUint32) ]) ]) ] in
  names_okb (TGroup fs) = true /\ parse_schema (schema_of (columns fs)) = inr fs.
Proof. vm_compute. split; reflexivity. Qed.

Print Assumptions schema_of_columns.
Print Assumptions parse_schema_of.
