(** * ReaderLayers: the reader model on a file given by its parts.

    A column chunk is a list of pages, each given by its bytes and the entries
    it carries; a row group is a list of chunks; a file is magic, row groups,
    footer, footer length, magic.  What a page has to satisfy is stated in
    terms of one iteration of the reader's page loop ([req_step], [opt_step]);
    everything above that is proved here once, for any [decompress], and is
    instantiated by the library writer's files (ReaderProofs2), the foreign
    writer's files (ForeignProofs) and the files the validator accepts
    (ConformantProofs). *)
From Coq Require Import List NArith ZArith Lia Bool Arith PeanoNat.
From Coq Require Import ZifyN ZifyNat ZifyBool.
From PQ Require Import Bytes Schema Dremel DremelProofs Rle Plain PlainProofs
     MetaTypes Thrift Meta MetaProofs Writer PageProofs Io IoProofs Reader Introspect ReaderProofs.
Import ListNotations.
Local Open Scope N_scope.

(** the checks of Metadata.Pages on the footer *)
Definition footer_checks (fs : list field) (fm : file_meta) : Prop :=
  forallb (fun rg => forallb (fun cc => match cc_meta cc with
                                        | Some cm => match find_col (columns fs) (cm_path cm) 0 with
                                                     | Some _ => true | None => false end
                                        | None => true end) (rg_columns rg)) (fm_row_groups fm) = true /\
  forallb (fun rg => forallb (fun cc => match cc_meta cc with Some _ => true | None => false end)
                             (rg_columns rg)) (fm_row_groups fm) = true.

Definition chunks_checks (cols : list col) (ccs : list column_chunk) : Prop :=
  forallb (fun cc => match cc_meta cc with
                     | Some cm => match find_col cols (cm_path cm) 0 with Some _ => true | None => false end
                     | None => true end) ccs = true /\
  forallb (fun cc => match cc_meta cc with Some _ => true | None => false end) ccs = true.

Definition row_group_checks (fs : list field) (rg : row_group) : Prop :=
  chunks_checks (columns fs) (rg_columns rg).

Lemma footer_checks_of fs fm : Forall (row_group_checks fs) (fm_row_groups fm) -> footer_checks fs fm.
Proof.
  intros H. rewrite Forall_forall in H. split; apply forallb_forall; intros rg Hin; apply (H rg Hin).
Qed.

Definition trailer (fm : file_meta) : bytes :=
  enc_file_meta fm ++ le_enc 4 (nlen (enc_file_meta fm) mod 2 ^ 32) ++ magic.

Lemma read_metadata_parts fm pre ft le4 m s0 :
  (forall rest, dec_file_meta (ft ++ rest) = Some (fm, rest)) ->
  length le4 = 4%nat -> length m = 4%nat -> le_dec le4 = nlen ft ->
  s_fail s0 = None -> s_file s0 = pre ++ ft ++ le4 ++ m ->
  exists s', read_metadata s0 = Ok (fm, s') /\ s_fail s' = None /\ s_file s' = s_file s0 /\
             s_pos s' + 8 = nlen (s_file s0).
Proof.
  intros Hdec Hle4 Hm Hlen Hfail Hfile.
  assert (HlenF : nlen (s_file s0) = nlen pre + nlen ft + 4 + 4).
  { rewrite Hfile. unfold nlen. rewrite !app_length, Hle4, Hm. lia. }
  unfold read_metadata.
  destruct (m_seek_end_ok (-8) s0 Hfail) as (s1 & H1 & Hf1 & Hn1 & Hp1); [lia|].
  rewrite (bind_ok H1).
  assert (Hrem1 : rem s1 = le4 ++ m).
  { apply (rem_at s1 (pre ++ ft)).
    - rewrite Hf1, Hfile, <- !app_assoc. reflexivity.
    - rewrite Hp1, HlenF, nlen_app. clear. lia. }
  destruct (m_read_full_ok le4 s1 m Hn1 Hrem1) as (s2 & H2 & Hf2 & Hn2 & _). rewrite Hle4 in H2.
  rewrite (bind_ok H2). cbv beta. rewrite Hlen.
  destruct (m_seek_end_ok (- (Z.of_N (nlen ft) + 8)) s2 Hn2) as (s3 & H3 & Hf3 & Hn3 & Hp3).
  { rewrite Hf2, Hf1, HlenF. clear. lia. }
  rewrite (bind_ok H3).
  assert (Hrem3 : rem s3 = ft ++ le4 ++ m).
  { apply (rem_at s3 pre).
    - rewrite Hf3, Hf2, Hf1, Hfile. reflexivity.
    - rewrite Hp3, Hf2, Hf1, HlenF. clear. lia. }
  destruct (m_read_struct_ok dec_file_meta fm ft Hdec s3 (le4 ++ m) Hn3 Hrem3) as (s4 & H4 & Hf4 & Hn4 & Hp4).
  exists s4. split; [exact H4|]. split; [exact Hn4|]. split; [rewrite Hf4, Hf3, Hf2, Hf1; reflexivity|].
  rewrite Hp4, Hp3, Hf2, Hf1, HlenF. unfold nlen. clear. lia.
Qed.

Lemma read_metadata_trailer fm pre s0 :
  file_meta_ok fm = true -> nlen (enc_file_meta fm) < 2 ^ 32 ->
  s_fail s0 = None -> s_file s0 = pre ++ trailer fm ->
  exists s', read_metadata s0 = Ok (fm, s') /\ s_fail s' = None /\ s_file s' = s_file s0 /\
             s_pos s' + 8 = nlen (s_file s0).
Proof.
  intros Hfm Hlen Hfail Hfile.
  apply (read_metadata_parts fm pre (enc_file_meta fm) (le_enc 4 (nlen (enc_file_meta fm) mod 2 ^ 32)) magic);
    [intros rest; apply dec_enc_file_meta; exact Hfm | apply le_enc_length | reflexivity | | exact Hfail | exact Hfile].
  rewrite le_dec_enc; [apply N.mod_small; exact Hlen|]. rewrite pow256_4. rewrite pow32 in Hlen |- *. lia.
Qed.

Lemma read_metadata_bind {B} (k : file_meta -> M B) s :
  bind read_metadata k s =
  bind (m_seek_end (-8)) (fun _ => bind (m_read_full 4) (fun lenb =>
    bind (m_seek_end (- (Z.of_N (le_dec lenb) + 8))) (fun _ => bind (m_read_struct dec_file_meta) k))) s.
Proof.
  unfold read_metadata, bind.
  destruct (m_seek_end (-8) s) as [[u s1]| |]; [|reflexivity..].
  destruct (m_read_full 4 s1) as [[lenb s2]| |]; [|reflexivity..].
  destruct (m_seek_end _ s2) as [[u' s3]| |]; reflexivity.
Qed.

Lemma open_footer_after fs fm s0 s4 :
  read_metadata s0 = Ok (fm, s4) -> s_fail s4 = None -> footer_checks fs fm ->
  exists s5, open_footer fs s0 = Ok (fm, s5) /\ s_fail s5 = None /\ s_file s5 = s_file s4 /\ s_pos s5 = 4.
Proof.
  intros H4 Hn4 [Hchk1 Hchk2]. unfold open_footer. rewrite <- read_metadata_bind, (bind_ok H4), Hchk1, Hchk2.
  destruct (m_seek_start_ok 4 s4 Hn4) as (s5 & H5 & Hf5 & Hn5 & Hp5); [lia|].
  rewrite (bind_ok H5). exists s5. auto.
Qed.

Lemma open_footer_trailer fs fm D s0 :
  file_meta_ok fm = true -> nlen (enc_file_meta fm) < 2 ^ 32 -> footer_checks fs fm ->
  s_fail s0 = None -> s_file s0 = magic ++ D ++ trailer fm ->
  exists s1, open_footer fs s0 = Ok (fm, s1) /\ s_fail s1 = None /\ rem s1 = D ++ trailer fm.
Proof.
  intros Hfm Hlen Hchk Hfail Hfile.
  destruct (read_metadata_trailer fm (magic ++ D) s0 Hfm Hlen Hfail) as (s4 & H4 & Hn4 & Hf4 & _).
  { rewrite Hfile, <- app_assoc. reflexivity. }
  destruct (open_footer_after fs fm s0 s4 H4 Hn4 Hchk) as (s5 & H5 & Hn5 & Hf5 & Hp5).
  exists s5. split; [exact H5|]. split; [exact Hn5|].
  apply (rem_at s5 magic); [rewrite Hf5, Hf4; exact Hfile | rewrite Hp5; reflexivity].
Qed.

Lemma set_nth_app {A} (pre : list A) x y post :
  set_nth (length pre) x (pre ++ y :: post) = pre ++ x :: post.
Proof. induction pre as [|z pre IH]; cbn [length app set_nth]; [reflexivity | rewrite IH; reflexivity]. Qed.

Section Layers.

Variable decompress : Z -> bytes -> option bytes.

(** ** Pages: one iteration of the reader's page loop consumes the page as the
    loop's invariant expects ([req_step] / [opt_step]), or rejects it
    ([req_bad] / [opt_bad]) *)

(** [nread] counts values here and bytes in [opt_step]: RequiredField.DoRead adds
    NumValues until pg.N, OptionalField.DoRead the bytes it read until pg.Size *)
Definition req_step (codec : Z) (c : col) (pb : bytes) (es : list entry) : Prop :=
  forall s rest f pgn nread acc sizes,
    s_fail s = None -> rem s = pb ++ rest -> (nread < pgn)%Z ->
    exists s',
      do_read_required decompress (S f) codec pgn nread acc sizes s =
      do_read_required decompress f codec pgn (nread + Z.of_nat (length es))
                       (acc ++ plain_enc (c_prim c) (entry_vals es)) (sizes ++ [length es]) s' /\
      adv s (length pb) s'.

Definition opt_step (codec : Z) (c : col) (pb : bytes) (es : list entry) : Prop :=
  forall s rest f size nread acc,
    s_fail s = None -> rem s = pb ++ rest -> (nread < size)%Z ->
    exists s',
      do_read_optional decompress (S f) codec (max_def c) (max_rep c) size nread acc s =
      do_read_optional decompress f codec (max_def c) (max_rep c) size (nread + Z.of_nat (length pb))
        {| oa_reps := oa_reps acc ++ page_reps c es;
           oa_defs := oa_defs acc ++ map e_def es;
           oa_out := oa_out acc ++ plain_enc (c_prim c) (entry_vals es);
           oa_sizes := oa_sizes acc ++ [length (entry_vals es)] |} s' /\
      adv s (length pb) s'.

Definition req_bad (codec : Z) (pb : bytes) : Prop :=
  forall s rest f pgn nread acc sizes,
    s_fail s = None -> rem s = pb ++ rest -> (nread < pgn)%Z ->
    do_read_required decompress (S f) codec pgn nread acc sizes s = Err.

Definition opt_bad (codec : Z) (c : col) (pb : bytes) : Prop :=
  forall s rest f size nread acc,
    s_fail s = None -> rem s = pb ++ rest -> (nread < size)%Z ->
    do_read_optional decompress (S f) codec (max_def c) (max_rep c) size nread acc s = Err.

(** the identity codec returns its input ([pageData] then reads
    [uncompressed_size] bytes without calling a decoder) *)
Definition codec_id : Prop := forall x, decompress CODEC_UNCOMPRESSED x = Some x.

Lemma page_data_good codec ph body payload :
  codec_id -> codec_ok codec ->
  (0 <= ph_compressed_size ph)%Z -> (0 <= ph_uncompressed_size ph)%Z ->
  length body = Z.to_nat (ph_compressed_size ph) ->
  decompress codec body = Some payload -> length payload = Z.to_nat (ph_uncompressed_size ph) ->
  reads (page_data decompress codec ph) body payload.
Proof.
  intros Hid Hsup Hc Hu Hbl Hdc Hpl. unfold page_data.
  destruct (Z.eqb codec CODEC_SNAPPY || Z.eqb codec CODEC_GZIP) eqn:Ecomp.
  - replace (ph_compressed_size ph <? 0)%Z with false by lia. rewrite <- Hbl. rewrite <- (app_nil_r body) at 2.
    apply (reads_bind _ _ _ _ _ _ (m_read_full_ok body)). rewrite Hdc. apply reads_ret.
  - assert (codec = CODEC_UNCOMPRESSED) as ->.
    { destruct Hsup as [<-|[<-|[<-|[]]]]; [reflexivity | discriminate Ecomp ..]. }
    change (Z.eqb CODEC_UNCOMPRESSED CODEC_UNCOMPRESSED) with true. cbv iota.
    rewrite Hid in Hdc. injection Hdc as <-.
    replace (ph_uncompressed_size ph <? 0)%Z with false by lia. rewrite <- Hpl.
    apply m_read_full_ok.
Qed.

Lemma req_step_intro codec c ph dph pre body es :
  codec_id -> codec_ok codec ->
  (forall rest, dec_page_header (pre ++ rest) = Some (ph, rest)) ->
  supported_page ph false false = Some dph ->
  (0 <= ph_compressed_size ph)%Z -> (0 <= ph_uncompressed_size ph)%Z ->
  length body = Z.to_nat (ph_compressed_size ph) ->
  decompress codec body = Some (plain_enc (c_prim c) (entry_vals es)) ->
  length (plain_enc (c_prim c) (entry_vals es)) = Z.to_nat (ph_uncompressed_size ph) ->
  dph_num_values dph = Z.of_nat (length es) ->
  req_step codec c (pre ++ body) es.
Proof.
  intros Hid Hsup Hloc Hsp Hc0 Hu0 Hbl Hdc Hpl Hnv s rest f pgn nread acc sizes Hfail Hrem Hlt.
  rewrite <- app_assoc in Hrem.
  cbn [do_read_required]. replace (nread <? pgn)%Z with true by lia.
  destruct (m_read_struct_ok dec_page_header ph pre Hloc s (body ++ rest) Hfail Hrem) as (s1 & Hh & Hadv1).
  rewrite (bind_ok Hh), Hsp.
  destruct (page_data_good codec ph body _ Hid Hsup Hc0 Hu0 Hbl Hdc Hpl s1 rest (adv_fail Hadv1)
              (rem_adv_app Hrem Hadv1)) as (s2 & Hd & Hadv2).
  rewrite (bind_ok Hd), Hnv, Nat2Z.id.
  exists s2. split; [reflexivity|]. rewrite app_length. exact (adv_trans Hadv1 Hadv2).
Qed.

Lemma opt_step_intro codec c ph dph pre body payload l1 l2 es :
  codec_id -> codec_ok codec ->
  (forall rest, dec_page_header (pre ++ rest) = Some (ph, rest)) ->
  supported_page ph true (0 <? max_rep c) = Some dph ->
  (0 <= ph_compressed_size ph)%Z -> (0 <= ph_uncompressed_size ph)%Z ->
  length body = Z.to_nat (ph_compressed_size ph) ->
  decompress codec body = Some payload -> length payload = Z.to_nat (ph_uncompressed_size ph) ->
  (if 0 <? max_rep c
   then read_levels (bit_width (max_rep c)) payload 0 (dph_num_values dph) = Ok (map e_rep es, l1)
   else l1 = 0%nat) ->
  read_levels (bit_width (max_def c)) payload l1 (dph_num_values dph) = Ok (map e_def es, l2) ->
  (l1 + l2 <= length payload)%nat ->
  skipn (l1 + l2) payload = plain_enc (c_prim c) (entry_vals es) ->
  length (filter (fun d => d =? max_def c) (map e_def es)) = length (entry_vals es) ->
  opt_step codec c (pre ++ body) es.
Proof.
  intros Hid Hsup Hloc Hsp Hc0 Hu0 Hbl Hdc Hpl Hl1 Hl2 Hfit Hp Hvl s rest f size nread acc Hfail Hrem Hlt.
  rewrite <- app_assoc in Hrem.
  cbn [do_read_optional]. replace (nread <? size)%Z with true by lia.
  unfold get_pos at 1. unfold bind at 1.
  destruct (m_read_struct_ok dec_page_header ph pre Hloc s (body ++ rest) Hfail Hrem) as (s1 & Hh & Hadv1).
  rewrite (bind_ok Hh), Hsp.
  destruct (page_data_good codec ph body payload Hid Hsup Hc0 Hu0 Hbl Hdc Hpl s1 rest (adv_fail Hadv1)
              (rem_adv_app Hrem Hadv1)) as (s2 & Hd & Hadv2).
  rewrite (bind_ok Hd). unfold get_pos at 1. unfold bind at 1.
  pose proof (adv_trans Hadv1 Hadv2) as Hadv. rewrite <- app_length in Hadv.
  replace (Z.of_N (s_pos s2 - s_pos s)) with (Z.of_nat (length (pre ++ body)))
    by (destruct Hadv as (_ & _ & ->); lia).
  exists s2. split; [|exact Hadv]. unfold page_reps.
  destruct (0 <? max_rep c).
  - rewrite Hl1. cbn [lift]. unfold ret at 1. unfold bind at 1. cbv beta iota.
    rewrite Hl2. cbn [lift]. unfold ret at 1. unfold bind at 1. cbv beta iota.
    replace (Nat.ltb (length payload) (l1 + l2)) with false by (symmetry; apply Nat.ltb_ge; exact Hfit).
    rewrite Hp, Hvl. reflexivity.
  - unfold ret at 1. unfold bind at 1. cbv beta iota. subst l1.
    rewrite Hl2. cbn [lift]. unfold ret at 1. unfold bind at 1. cbv beta iota.
    replace (Nat.ltb (length payload) (0 + l2)) with false by (symmetry; apply Nat.ltb_ge; exact Hfit).
    rewrite Hp, Hvl. reflexivity.
Qed.

Notation gpage := (bytes * list entry)%type (only parsing).

Definition page_good (codec : Z) (c : col) (p : gpage) : Prop :=
  snd p <> [] /\ (1 <= length (fst p))%nat /\ lev_ok c (snd p) /\
  Forall (leaf_ok (c_prim c)) (entry_vals (snd p)) /\
  Forall (fun v => nlen (str_of v) < 2 ^ 31) (entry_vals (snd p)) /\
  (if col_required c then req_step codec c (fst p) (snd p) else opt_step codec c (fst p) (snd p)).

Definition page_bad (codec : Z) (c : col) (pb : bytes) : Prop :=
  (1 <= length pb)%nat /\ (if col_required c then req_bad codec pb else opt_bad codec c pb).

Definition pbytes (pgs : list gpage) : bytes := concat (map fst pgs).
Definition pentries (pgs : list gpage) : list entry := concat (map snd pgs).

Lemma pbytes_cons p pgs : pbytes (p :: pgs) = fst p ++ pbytes pgs.
Proof. reflexivity. Qed.
Lemma pentries_cons p pgs : pentries (p :: pgs) = snd p ++ pentries pgs.
Proof. reflexivity. Qed.

Lemma good_entries_len codec c pgs :
  Forall (page_good codec c) pgs -> (length pgs <= length (pentries pgs))%nat.
Proof.
  induction 1 as [|p pgs Hp _ IH]; [cbn; lia|].
  rewrite pentries_cons, app_length. cbn [length]. destruct Hp as (Hne & _).
  destruct (snd p); [congruence | cbn [length]; lia].
Qed.

Lemma good_bytes_len codec c pgs :
  Forall (page_good codec c) pgs -> (length pgs <= length (pbytes pgs))%nat.
Proof.
  induction 1 as [|p pgs Hp _ IH]; [cbn; lia|].
  rewrite pbytes_cons, app_length. cbn [length]. destruct Hp as (_ & Hb & _). lia.
Qed.

Lemma required_prefix codec c : forall pgs s rest f pgn nread acc sizes,
  Forall (page_good codec c) pgs -> col_required c = true -> s_fail s = None ->
  rem s = pbytes pgs ++ rest ->
  (nread + Z.of_nat (length (pentries pgs)) <= pgn)%Z ->
  exists s',
    do_read_required decompress (length pgs + f) codec pgn nread acc sizes s =
    do_read_required decompress f codec pgn (nread + Z.of_nat (length (pentries pgs)))
      (acc ++ concat (map (fun p => plain_enc (c_prim c) (entry_vals (snd p))) pgs))
      (sizes ++ map (fun p => length (snd p)) pgs) s' /\
    adv s (length (pbytes pgs)) s'.
Proof.
  induction pgs as [|p pgs IH]; intros s rest f pgn nread acc sizes Hgood Hreq Hfail Hrem Hle.
  - exists s. cbn [pentries pbytes map concat length Nat.add]. rewrite !app_nil_r, Z.add_0_r.
    split; [reflexivity | apply adv_refl; exact Hfail].
  - inversion Hgood as [|p' pgs' Hp Hpgs]; subst p' pgs'.
    rewrite pbytes_cons, <- app_assoc in Hrem. rewrite pentries_cons, app_length in Hle |- *.
    pose proof Hp as (Hne & _ & _ & _ & _ & Hstep). rewrite Hreq in Hstep.
    assert (Hpos : (1 <= length (snd p))%nat) by (destruct (snd p); [congruence | cbn [length]; lia]).
    cbn [length Nat.add].
    destruct (Hstep s _ (length pgs + f)%nat pgn nread acc sizes Hfail Hrem) as (s1 & Hs & Hadv1); [lia|].
    rewrite Hs.
    destruct (IH s1 rest f pgn (nread + Z.of_nat (length (snd p)))%Z
                 (acc ++ plain_enc (c_prim c) (entry_vals (snd p))) (sizes ++ [length (snd p)])
                 Hpgs Hreq (adv_fail Hadv1) (rem_adv_app Hrem Hadv1)) as (s2 & Hrun & Hadv2); [lia|].
    exists s2. rewrite Hrun. cbn [map concat]. rewrite <- !app_assoc. cbn [app]. split.
    + f_equal. lia.
    + rewrite pbytes_cons, app_length. exact (adv_trans Hadv1 Hadv2).
Qed.

Lemma optional_prefix codec c : forall pgs s rest f size nread acc,
  Forall (page_good codec c) pgs -> col_required c = false -> s_fail s = None ->
  rem s = pbytes pgs ++ rest ->
  (nread + Z.of_nat (length (pbytes pgs)) <= size)%Z ->
  exists s',
    do_read_optional decompress (length pgs + f) codec (max_def c) (max_rep c) size nread acc s =
    do_read_optional decompress f codec (max_def c) (max_rep c) size
      (nread + Z.of_nat (length (pbytes pgs)))
      {| oa_reps := oa_reps acc ++ concat (map (fun p => page_reps c (snd p)) pgs);
         oa_defs := oa_defs acc ++ concat (map (fun p => map e_def (snd p)) pgs);
         oa_out := oa_out acc ++ concat (map (fun p => plain_enc (c_prim c) (entry_vals (snd p))) pgs);
         oa_sizes := oa_sizes acc ++ map (fun p => length (entry_vals (snd p))) pgs |} s' /\
    adv s (length (pbytes pgs)) s'.
Proof.
  induction pgs as [|p pgs IH]; intros s rest f size nread acc Hgood Hreq Hfail Hrem Hle.
  - exists s. cbn [pentries pbytes map concat length Nat.add]. rewrite !app_nil_r, Z.add_0_r.
    split; [destruct acc; reflexivity | apply adv_refl; exact Hfail].
  - inversion Hgood as [|p' pgs' Hp Hpgs]; subst p' pgs'.
    rewrite pbytes_cons, <- app_assoc in Hrem. rewrite pbytes_cons, app_length in Hle |- *.
    pose proof Hp as (_ & Hpos & _ & _ & _ & Hstep). rewrite Hreq in Hstep.
    cbn [length Nat.add].
    destruct (Hstep s _ (length pgs + f)%nat size nread acc Hfail Hrem) as (s1 & Hs & Hadv1); [lia|].
    rewrite Hs.
    match goal with |- context [do_read_optional _ _ _ _ _ _ _ ?a s1] => set (acc1 := a) end.
    destruct (IH s1 rest f size (nread + Z.of_nat (length (fst p)))%Z acc1
                 Hpgs Hreq (adv_fail Hadv1) (rem_adv_app Hrem Hadv1)) as (s2 & Hrun & Hadv2); [lia|].
    exists s2. rewrite Hrun. unfold acc1. cbn [oa_reps oa_defs oa_out oa_sizes map concat].
    rewrite <- !app_assoc. cbn [app]. split.
    + f_equal. lia.
    + exact (adv_trans Hadv1 Hadv2).
Qed.

Lemma required_done f codec pgn acc sizes s :
  do_read_required decompress f codec pgn pgn acc sizes s = Ok ((acc, sizes), s).
Proof. destruct f; cbn [do_read_required]; rewrite Z.ltb_irrefl; reflexivity. Qed.

Lemma optional_done f codec maxdef maxrep size acc s :
  do_read_optional decompress f codec maxdef maxrep size size acc s = Ok (acc, s).
Proof. destruct f; cbn [do_read_optional]; rewrite Z.ltb_irrefl; reflexivity. Qed.

Lemma good_lev_ok codec c pgs : Forall (page_good codec c) pgs -> lev_ok c (pentries pgs).
Proof.
  intros H. unfold lev_ok, pentries. apply Forall_concat. apply Forall_map.
  eapply Forall_impl; [|exact H]. intros p (_ & _ & Hl & _). exact Hl.
Qed.

Lemma good_values_decode codec c pgs :
  Forall (page_good codec c) pgs ->
  decode_values (c_prim c) (Z.of_nat (length (entry_vals (pentries pgs))))
                (concat (map (fun p : gpage => plain_enc (c_prim c) (entry_vals (snd p))) pgs))
                (map (fun p : gpage => length (entry_vals (snd p))) pgs) = Ok (entry_vals (pentries pgs)).
Proof.
  intros Hgood. unfold pentries. rewrite entry_vals_concat, map_map.
  rewrite <- (map_map (fun p : gpage => entry_vals (snd p)) (plain_enc (c_prim c))).
  rewrite <- (map_map (fun p : gpage => entry_vals (snd p)) (@length value)).
  apply decode_values_ok; [| |reflexivity]; apply Forall_map; eapply Forall_impl; try exact Hgood;
    intros p (_ & _ & _ & Hty & Hstr & _); assumption.
Qed.

Theorem read_chunk_good codec c pgs cm :
  Forall (page_good codec c) pgs ->
  cm_codec cm = codec ->
  cm_num_values cm = Z.of_nat (length (pentries pgs)) ->
  cm_total_compressed cm = Z.of_nat (length (pbytes pgs)) ->
  reads (read_chunk decompress c cm) (pbytes pgs) (pentries pgs).
Proof.
  intros Hgood Hcod Hnv Htot s rest Hfail Hrem.
  pose proof (good_lev_ok codec c pgs Hgood) as Hlev. pose proof (good_values_decode codec c pgs Hgood) as Hdec.
  unfold read_chunk. cbv zeta. rewrite Hcod, Hnv, Htot.
  destruct (col_required c) eqn:Hreq.
  - pose proof (good_entries_len codec c pgs Hgood) as Hlen.
    destruct (required_prefix codec c pgs s rest
                (S (Z.to_nat (Z.of_nat (length (pentries pgs)))) - length pgs)%nat
                (Z.of_nat (length (pentries pgs))) 0%Z [] [] Hgood Hreq Hfail Hrem) as (s' & Hrun & Hadv); [lia|].
    replace (length pgs + (S (Z.to_nat (Z.of_nat (length (pentries pgs)))) - length pgs))%nat
      with (S (Z.to_nat (Z.of_nat (length (pentries pgs))))) in Hrun by lia.
    rewrite Z.add_0_l, required_done in Hrun.
    rewrite (bind_ok Hrun). cbv beta iota. cbn [app].
    (* in a required column every entry carries a value *)
    rewrite (map_ext_in (fun p : gpage => length (snd p)) (fun p => length (entry_vals (snd p)))).
    2:{ intros p Hp. rewrite Forall_forall in Hgood. destruct (Hgood p Hp) as (_ & _ & Hl & _).
        symmetry. apply (required_count c _ Hreq Hl). }
    rewrite <- (required_count c _ Hreq Hlev), Hdec. cbn [lift]. unfold ret at 1. unfold bind at 1. unfold ret.
    rewrite (required_entries c _ Hreq Hlev). exists s'. split; [reflexivity|exact Hadv].
  - pose proof (good_bytes_len codec c pgs Hgood) as Hlen.
    destruct (optional_prefix codec c pgs s rest
                (S (Z.to_nat (Z.of_nat (length (pbytes pgs)))) - length pgs)%nat
                (Z.of_nat (length (pbytes pgs))) 0%Z
                {| oa_reps := []; oa_defs := []; oa_out := []; oa_sizes := [] |}
                Hgood Hreq Hfail Hrem) as (s' & Hrun & Hadv); [lia|].
    replace (length pgs + (S (Z.to_nat (Z.of_nat (length (pbytes pgs)))) - length pgs))%nat
      with (S (Z.to_nat (Z.of_nat (length (pbytes pgs))))) in Hrun by lia.
    rewrite Z.add_0_l, optional_done in Hrun.
    rewrite (bind_ok Hrun). cbv zeta. cbn [oa_reps oa_defs oa_out oa_sizes app].
    rewrite <- (map_map snd (map e_def)), <- (map_map snd (page_reps c)), <- concat_map, page_reps_concat.
    change (concat (map snd pgs)) with (pentries pgs).
    rewrite (count_max_def_levels c _ Hlev), Hdec. cbn [lift]. unfold ret at 1. unfold bind at 1. unfold ret.
    rewrite (zip_levels_page_reps c _ Hlev). exists s'. split; [reflexivity|exact Hadv].
Qed.

Theorem read_chunk_bad codec c pgs bad cm :
  Forall (page_good codec c) pgs -> page_bad codec c bad ->
  cm_codec cm = codec ->
  (Z.of_nat (length (pentries pgs)) < cm_num_values cm)%Z ->
  (Z.of_nat (length (pbytes pgs)) < cm_total_compressed cm)%Z ->
  fails (read_chunk decompress c cm) (pbytes pgs ++ bad).
Proof.
  intros Hgood [_ Hbad] Hcod Hnv Htot s rest Hfail Hrem. rewrite <- app_assoc in Hrem.
  unfold read_chunk. cbv zeta. rewrite Hcod.
  destruct (col_required c) eqn:Hreq.
  - pose proof (good_entries_len codec c pgs Hgood) as Hlen.
    destruct (required_prefix codec c pgs s (bad ++ rest)
                (S (Z.to_nat (cm_num_values cm) - length pgs))
                (cm_num_values cm) 0%Z [] [] Hgood Hreq Hfail Hrem) as (s' & Hrun & Hadv); [lia|].
    replace (length pgs + S (Z.to_nat (cm_num_values cm) - length pgs))%nat
      with (S (Z.to_nat (cm_num_values cm))) in Hrun by lia.
    unfold bind. rewrite Hrun.
    rewrite (Hbad s' rest _ _ _ _ _ (adv_fail Hadv) (rem_adv_app Hrem Hadv)); [reflexivity | lia].
  - pose proof (good_bytes_len codec c pgs Hgood) as Hlen.
    destruct (optional_prefix codec c pgs s (bad ++ rest)
                (S (Z.to_nat (cm_total_compressed cm) - length pgs))
                (cm_total_compressed cm) 0%Z
                {| oa_reps := []; oa_defs := []; oa_out := []; oa_sizes := [] |}
                Hgood Hreq Hfail Hrem) as (s' & Hrun & Hadv); [lia|].
    replace (length pgs + S (Z.to_nat (cm_total_compressed cm) - length pgs))%nat
      with (S (Z.to_nat (cm_total_compressed cm))) in Hrun by lia.
    unfold bind. rewrite Hrun.
    rewrite (Hbad s' rest _ _ _ _ (adv_fail Hadv) (rem_adv_app Hrem Hadv)); [reflexivity | lia].
Qed.

(** ** One row group *)

Definition chunk_reads (c : col) (cm : column_meta) (b : bytes) (es : list entry) : Prop :=
  reads (read_chunk decompress c cm) b es.

Definition chunk_fails (c : col) (cm : column_meta) (b : bytes) : Prop :=
  fails (read_chunk decompress c cm) b.

Record citem := { ci_idx : nat; ci_col : col; ci_bytes : bytes; ci_es : list entry }.

Definition cc_reads (cols : list col) (x : citem) (cc : column_chunk) : Prop :=
  exists cm, cc_meta cc = Some cm /\ find_col cols (cm_path cm) 0 = Some (ci_idx x, ci_col x) /\
             chunk_reads (ci_col x) cm (ci_bytes x) (ci_es x).

Definition cc_fails (cols : list col) (bad : bytes) (cc : column_chunk) : Prop :=
  exists cm i c, cc_meta cc = Some cm /\ find_col cols (cm_path cm) 0 = Some (i, c) /\ chunk_fails c cm bad.

Definition cbytes (xs : list citem) : bytes := concat (map ci_bytes xs).

Lemma cc_reads_checks cols xs ccs :
  Forall2 (cc_reads cols) xs ccs -> chunks_checks cols ccs.
Proof.
  induction 1 as [|x cc xs ccs (cm & Hmeta & Hfind & _) _ [IH1 IH2]]; [split; reflexivity|].
  unfold chunks_checks. cbn [forallb]. rewrite Hmeta, Hfind, IH1, IH2. split; reflexivity.
Qed.

Lemma fold_set_idx : forall (xs : list citem) k (pre junk : list (list entry)),
  map ci_idx xs = seq k (length xs) -> length pre = k -> length junk = length xs ->
  fold_left (fun a x => set_nth (ci_idx x) (ci_es x) a) xs (pre ++ junk) = pre ++ map ci_es xs.
Proof.
  induction xs as [|x xs IH]; intros k pre junk Hidx Hpre Hjunk.
  - destruct junk; [reflexivity | discriminate].
  - destruct junk as [|j junk]; [discriminate|]. injection Hjunk as Hjunk.
    cbn [map length seq] in Hidx. injection Hidx as Hx Hidx.
    cbn [fold_left map]. rewrite Hx, <- Hpre, set_nth_app.
    change (pre ++ ci_es x :: junk) with (pre ++ [ci_es x] ++ junk). rewrite app_assoc.
    rewrite (IH (S k)); [|exact Hidx|rewrite app_length, Hpre; apply Nat.add_1_r|exact Hjunk].
    rewrite <- app_assoc. reflexivity.
Qed.

Lemma read_chunks_good cols : forall xs ccs acc,
  Forall2 (cc_reads cols) xs ccs ->
  reads (read_chunks decompress cols ccs acc) (cbytes xs)
        (fold_left (fun a x => set_nth (ci_idx x) (ci_es x) a) xs acc).
Proof.
  intros xs ccs acc Hrel. revert acc.
  induction Hrel as [|x cc xs ccs (cm & Hmeta & Hfind & Hrd) _ IH]; intros acc; [apply reads_ret|].
  cbn [read_chunks]. rewrite Hmeta, Hfind. apply (reads_bind _ _ _ _ _ _ Hrd). apply IH.
Qed.

Lemma read_chunks_bad cols xs ccs1 bad ccb ccs2 acc :
  Forall2 (cc_reads cols) xs ccs1 -> cc_fails cols bad ccb ->
  fails (read_chunks decompress cols (ccs1 ++ ccb :: ccs2) acc) (cbytes xs ++ bad).
Proof.
  intros Hrel (cm & i & c & Hmeta & Hfind & Hf). revert acc.
  induction Hrel as [|x cc xs ccs1 (cm' & Hmeta' & Hfind' & Hrd) _ IH]; intros acc; cbn [app read_chunks].
  - rewrite Hmeta, Hfind. apply fails_bind. exact Hf.
  - rewrite Hmeta', Hfind'. unfold cbytes. cbn [map concat]. rewrite <- app_assoc.
    apply (reads_fails_bind _ _ _ _ _ Hrd). apply IH.
Qed.

Definition rg_reads (fs : list field) (rg : row_group) (b : bytes) (recs : list value) : Prop :=
  reads (read_row_group decompress fs rg) b recs.

Definition rg_fails (fs : list field) (rg : row_group) (b : bytes) : Prop :=
  fails (read_row_group decompress fs rg) b.

Lemma read_row_group_good fs xs rg recs :
  Forall2 (cc_reads (columns fs)) xs (rg_columns rg) ->
  map ci_idx xs = seq 0 (length (columns fs)) ->
  assemble_records fs (map ci_es xs) = Some recs ->
  rg_reads fs rg (cbytes xs) recs.
Proof.
  intros Hrel Hidx Hasm. unfold rg_reads, read_row_group. cbv zeta. rewrite <- (app_nil_r (cbytes xs)).
  apply (reads_bind _ _ _ _ _ _ (read_chunks_good _ _ _ _ Hrel)).
  assert (Hlen : length xs = length (columns fs)) by (rewrite <- (map_length ci_idx), Hidx; apply seq_length).
  change (repeat [] (length (columns fs))) with ([] ++ repeat (@nil entry) (length (columns fs))).
  rewrite (fold_set_idx xs 0);
    [| rewrite Hlen; exact Hidx | reflexivity | rewrite repeat_length; symmetry; exact Hlen].
  cbn [app]. rewrite Hasm. apply reads_ret.
Qed.

(** ** The whole file *)

Record ritem := { ri_recs : list value; ri_rg : row_group; ri_bytes : bytes }.

(** a row group may hold no record at all: the loop of Next skips it *)
Definition ritem_ok (fs : list field) (x : ritem) : Prop :=
  rg_num_rows (ri_rg x) = Z.of_nat (length (ri_recs x)) /\
  rg_reads fs (ri_rg x) (ri_bytes x) (ri_recs x).

Definition rbytes (items : list ritem) : bytes := concat (map ri_bytes items).
Definition rrecs (items : list ritem) : list value := concat (map ri_recs items).

Lemma load_nonempty_first fs rg rest s recs s' :
  read_row_group decompress fs rg s = Ok (recs, s') -> (0 < rg_num_rows rg)%Z ->
  load_nonempty decompress fs (rg :: rest) s = Ok (recs, rg_num_rows rg, rest, s').
Proof.
  intros Hrd Hpos. cbn [load_nonempty]. rewrite Hrd.
  replace (0 <? rg_num_rows rg)%Z with true by lia. reflexivity.
Qed.

Lemma iterate_drain fs rows : forall cur f cursor rgcursor rgcount rgs nexts recs s,
  (rgcount - rgcursor = Z.of_nat (length cur))%Z -> (Z.of_nat (length cur) <= rows - cursor)%Z ->
  exists cursor' rc nexts',
    iterate decompress (length cur + f) fs rows cursor rgcursor rgcount cur rgs nexts recs s =
    iterate decompress f fs rows cursor' rc rgcount [] rgs nexts' (recs ++ cur) s /\
    cursor' = (cursor + Z.of_nat (length cur))%Z /\ nexts' = nexts + N.of_nat (length cur) /\
    (rgcount <= rc)%Z.
Proof.
  induction cur as [|x cur IH]; intros f cursor rgcursor rgcount rgs nexts recs s Hrg Hrows.
  - exists cursor, rgcursor, nexts. cbn [length Nat.add] in *. rewrite app_nil_r.
    split; [reflexivity|]. repeat split; lia.
  - cbn [length Nat.add] in *. cbn [iterate].
    replace (rows <=? cursor)%Z with false by lia.
    replace (rgcount <=? rgcursor)%Z with false by lia. cbn [hd tl].
    destruct (IH f (cursor + 1)%Z (rgcursor + 1)%Z rgcount rgs (nexts + 1) (recs ++ [x]) s)
      as (cursor' & rc & nexts' & Hrun & Hc & Hn & Hrc); [lia | lia |].
    exists cursor', rc, nexts'. rewrite Hrun, <- app_assoc. split; [reflexivity|]. repeat split; lia.
Qed.

Lemma rbytes_cons x items : rbytes (x :: items) = ri_bytes x ++ rbytes items.
Proof. reflexivity. Qed.
Lemma rrecs_cons x items : rrecs (x :: items) = ri_recs x ++ rrecs items.
Proof. reflexivity. Qed.

(** once the loaded row group is used up ([rgcount <= rgcursor]) the two
    counters and [cur] are dead: the next call of Next overwrites them *)
Lemma iterate_reload fuel fs rows cursor rc rn cur rgs nexts recs s :
  (rn <= rc)%Z ->
  iterate decompress fuel fs rows cursor rc rn cur rgs nexts recs s =
  iterate decompress fuel fs rows cursor 0 0 [] rgs nexts recs s.
Proof.
  intros Hrc. destruct fuel as [|f]; [reflexivity|]. cbn [iterate].
  replace (rn <=? rc)%Z with true by lia. replace (0 <=? 0)%Z with true by lia. reflexivity.
Qed.

Lemma iterate_skip_empty fuel fs rows cursor rg rest nexts recs s recs0 s1 :
  read_row_group decompress fs rg s = Ok (recs0, s1) -> (rg_num_rows rg <= 0)%Z ->
  iterate decompress fuel fs rows cursor 0 0 [] (rg :: rest) nexts recs s =
  iterate decompress fuel fs rows cursor 0 0 [] rest nexts recs s1.
Proof.
  intros Hrd Hnr. destruct fuel as [|f]; [reflexivity|]. cbn [iterate].
  destruct (rows <=? cursor)%Z; [reflexivity|].
  replace (0 <=? 0)%Z with true by lia. cbn [load_nonempty]. rewrite Hrd.
  replace (0 <? rg_num_rows rg)%Z with false by lia. reflexivity.
Qed.

Lemma iterate_prefix fs rows : forall items cur f cursor rgcursor rgcount rgs2 nexts recs s tailb,
  Forall (ritem_ok fs) items -> s_fail s = None -> rem s = rbytes items ++ tailb ->
  (rgcount - rgcursor = Z.of_nat (length cur))%Z ->
  (Z.of_nat (length cur + length (rrecs items)) <= rows - cursor)%Z ->
  exists s' rc rn cursor' nexts',
    iterate decompress (length cur + length (rrecs items) + f) fs rows cursor rgcursor rgcount cur
            (map ri_rg items ++ rgs2) nexts recs s =
    iterate decompress f fs rows cursor' rc rn [] rgs2 nexts' (recs ++ cur ++ rrecs items) s' /\
    cursor' = (cursor + Z.of_nat (length cur + length (rrecs items)))%Z /\
    nexts' = nexts + N.of_nat (length cur + length (rrecs items)) /\
    (rn <= rc)%Z /\ s_fail s' = None /\ rem s' = tailb.
Proof.
  induction items as [|x items IH]; intros cur f cursor rgcursor rgcount rgs2 nexts recs s tailb
                                            Hok Hfail Hrem Hrg Hrows.
  - cbn [rrecs rbytes map concat length app] in *. rewrite Nat.add_0_r in *. rewrite app_nil_r.
    destruct (iterate_drain fs rows cur f cursor rgcursor rgcount rgs2 nexts recs s Hrg Hrows)
      as (cursor' & rc & nexts' & Hrun & Hc & Hn & Hrc).
    exists s, rc, rgcount, cursor', nexts'. rewrite Hrun. split; [reflexivity|]. repeat split; auto.
  - inversion Hok as [|x' items' (Hnr & Hrd) Hok']; subst x' items'.
    rewrite rbytes_cons, <- app_assoc in Hrem. rewrite rrecs_cons, app_length in Hrows |- *.
    destruct (Hrd s _ Hfail Hrem) as (s1 & Hrd1 & Hadv1).
    destruct (iterate_drain fs rows cur (length (ri_recs x) + length (rrecs items) + f) cursor rgcursor rgcount
                (map ri_rg (x :: items) ++ rgs2) nexts recs s Hrg) as (cursor1 & rc1 & nexts1 & Hrun1 & Hc1 & Hn1 & Hrc1); [lia|].
    replace (length cur + (length (ri_recs x) + length (rrecs items)) + f)%nat
      with (length cur + (length (ri_recs x) + length (rrecs items) + f))%nat by lia.
    rewrite Hrun1, (iterate_reload _ _ _ _ _ _ _ _ _ _ _ Hrc1).
    cbn [map app].
    destruct (ri_recs x) as [|r0 rs] eqn:Erecs; cbn [length] in Hrows, Hnr |- *.
    + (* an empty row group: read, skipped *)
      rewrite (iterate_skip_empty _ _ _ _ _ _ _ _ _ _ _ Hrd1) by lia. cbn [Nat.add].
      destruct (IH [] f cursor1 0%Z 0%Z rgs2 nexts1 (recs ++ cur) s1 tailb Hok'
                   (adv_fail Hadv1) (rem_adv_app Hrem Hadv1))
        as (s' & rc & rn & cursor' & nexts' & Hrun & Hc & Hn & Hrc & Hf' & Hrem'); [reflexivity | cbn [length]; lia |].
      cbn [length Nat.add app] in Hrun, Hc, Hn.
      exists s', rc, rn, cursor', nexts'. rewrite Hrun. split.
      * f_equal. rewrite <- app_assoc. reflexivity.
      * repeat split; auto; lia.
    + cbn [Nat.add iterate].
      replace (rows <=? cursor1)%Z with false by lia.
      replace (0 <=? 0)%Z with true by lia.
      rewrite (load_nonempty_first _ _ _ _ _ _ Hrd1) by lia. cbn [hd tl].
      destruct (IH rs f (cursor1 + 1)%Z (0 + 1)%Z (rg_num_rows (ri_rg x)) rgs2 (nexts1 + 1)
                   ((recs ++ cur) ++ [r0]) s1 tailb Hok' (adv_fail Hadv1) (rem_adv_app Hrem Hadv1))
        as (s' & rc & rn & cursor' & nexts' & Hrun & Hc & Hn & Hrc & Hf' & Hrem'); [lia | lia |].
      exists s', rc, rn, cursor', nexts'. rewrite Hrun. split.
      * f_equal. rewrite <- !app_assoc. reflexivity.
      * repeat split; auto; lia.
Qed.

Lemma iterate_end f fs rows cursor rc rn rgs nexts recs s :
  (rows <= cursor)%Z ->
  iterate decompress (S f) fs rows cursor rc rn [] rgs nexts recs s = mk_outcome rows nexts false false recs.
Proof. intros H. cbn [iterate]. replace (rows <=? cursor)%Z with true by lia. reflexivity. Qed.

Lemma read_all_opened fs fm items s0 s1 tailb :
  open_footer fs s0 = Ok (fm, s1) -> s_fail s1 = None -> rem s1 = rbytes items ++ tailb ->
  fm_row_groups fm = map ri_rg items -> fm_num_rows fm = Z.of_nat (length (rrecs items)) ->
  Forall (ritem_ok fs) items ->
  read_all_src decompress fs s0 =
  {| o_open_ok := true; o_rows := Z.of_nat (length (rrecs items)); o_nexts := N.of_nat (length (rrecs items));
     o_err := false; o_panic := false; o_recs := rrecs items |}.
Proof.
  intros Hopen Hfail1 Hrem1 Hrgs Hrows Hok. unfold read_all_src.
  rewrite Hopen. cbv zeta. rewrite Hrgs, Hrows. destruct items as [|x items].
  - cbn [map rrecs concat length]. cbn [Z.of_nat Z.to_nat]. rewrite iterate_end by lia. reflexivity.
  - inversion Hok as [|x' items' (Hnr & Hrd) Hok']; subst x' items'.
    cbn [map]. rewrite rbytes_cons, <- app_assoc in Hrem1.
    destruct (Hrd s1 _ Hfail1 Hrem1) as (s2 & Hrd2 & Hadv2). rewrite Hrd2.
    rewrite rrecs_cons, app_length.
    destruct (iterate_prefix fs (Z.of_nat (length (ri_recs x) + length (rrecs items))) items (ri_recs x) 1
                0%Z 0%Z (rg_num_rows (ri_rg x)) [] 0 [] s2 tailb Hok'
                (adv_fail Hadv2) (rem_adv_app Hrem1 Hadv2))
      as (s' & rc & rn & cursor' & nexts' & Hrun & Hc & Hn & Hrc & _ & _); [clear - Hnr; lia | clear; lia |].
    rewrite app_nil_r in Hrun.
    replace (S (Z.to_nat (Z.of_nat (length (ri_recs x) + length (rrecs items)))))
      with (length (ri_recs x) + length (rrecs items) + 1)%nat by (clear; lia).
    rewrite Hrun, iterate_end by (clear - Hc; lia). unfold mk_outcome. cbn [app]. f_equal. clear - Hn. lia.
Qed.

Theorem read_all_good fs fm items sched :
  file_meta_ok fm = true -> nlen (enc_file_meta fm) < 2 ^ 32 -> footer_checks fs fm ->
  fm_row_groups fm = map ri_rg items -> fm_num_rows fm = Z.of_nat (length (rrecs items)) ->
  Forall (ritem_ok fs) items ->
  read_all_src decompress fs (mk_src (magic ++ rbytes items ++ trailer fm) sched None) =
  {| o_open_ok := true;
     o_rows := Z.of_nat (length (rrecs items));
     o_nexts := N.of_nat (length (rrecs items));
     o_err := false; o_panic := false;
     o_recs := rrecs items |}.
Proof.
  intros Hfm Hlen Hchk Hrgs Hrows Hok.
  destruct (open_footer_trailer fs fm (rbytes items) (mk_src (magic ++ rbytes items ++ trailer fm) sched None)
              Hfm Hlen Hchk eq_refl eq_refl) as (s1 & Hopen & Hfail1 & Hrem1).
  exact (read_all_opened fs fm items _ s1 (trailer fm) Hopen Hfail1 Hrem1 Hrgs Hrows Hok).
Qed.

(** when [items = []] the error comes from the constructor, which reads the first row group *)
Theorem read_all_bad fs fm items rgb bad rgs2 Dtail sched :
  file_meta_ok fm = true -> nlen (enc_file_meta fm) < 2 ^ 32 -> footer_checks fs fm ->
  fm_row_groups fm = map ri_rg items ++ rgb :: rgs2 ->
  (Z.of_nat (length (rrecs items)) < fm_num_rows fm)%Z ->
  Forall (ritem_ok fs) items -> rg_fails fs rgb bad ->
  let o := read_all_src decompress fs (mk_src (magic ++ (rbytes items ++ bad ++ Dtail) ++ trailer fm) sched None) in
  o_panic o = false /\ (o_open_ok o = false \/ o_err o = true) /\ o_recs o = rrecs items /\
  (items = [] -> o_open_ok o = false) /\ (items <> [] -> o_open_ok o = true /\ o_err o = true).
Proof.
  intros Hfm Hlen Hchk Hrgs Hrows Hok Hbad. cbv zeta. unfold read_all_src.
  destruct (open_footer_trailer fs fm (rbytes items ++ bad ++ Dtail)
              (mk_src (magic ++ (rbytes items ++ bad ++ Dtail) ++ trailer fm) sched None)
              Hfm Hlen Hchk eq_refl eq_refl) as (s1 & Hopen & Hfail1 & Hrem1).
  rewrite Hopen. cbv zeta. rewrite Hrgs. destruct items as [|x items].
  - cbn [map app rbytes concat] in Hrem1 |- *. rewrite <- app_assoc in Hrem1.
    rewrite (Hbad s1 _ Hfail1 Hrem1). cbn. repeat split; auto; intros H; congruence.
  - inversion Hok as [|x' items' (Hnr & Hrd) Hok']; subst x' items'.
    cbn [map app]. rewrite rbytes_cons, <- !app_assoc in Hrem1.
    destruct (Hrd s1 _ Hfail1 Hrem1) as (s2 & Hrd2 & Hadv2). rewrite Hrd2.
    rewrite rrecs_cons, app_length in Hrows.
    set (rows := fm_num_rows fm) in *.
    destruct (iterate_prefix fs rows items (ri_recs x)
                (S (Z.to_nat rows) - (length (ri_recs x) + length (rrecs items)))%nat
                0%Z 0%Z (rg_num_rows (ri_rg x)) (rgb :: rgs2) 0 [] s2 (bad ++ Dtail ++ trailer fm) Hok'
                (adv_fail Hadv2) (rem_adv_app Hrem1 Hadv2))
      as (s' & rc & rn & cursor' & nexts' & Hrun & Hc & Hn & Hrc & Hf' & Hrem'); [lia | lia |].
    replace (length (ri_recs x) + length (rrecs items) +
             (S (Z.to_nat rows) - (length (ri_recs x) + length (rrecs items))))%nat
      with (S (Z.to_nat rows)) in Hrun by lia.
    rewrite Hrun.
    replace (S (Z.to_nat rows) - (length (ri_recs x) + length (rrecs items)))%nat
      with (S (Z.to_nat rows - (length (ri_recs x) + length (rrecs items)))) by lia.
    cbn [iterate]. replace (rows <=? cursor')%Z with false by lia.
    replace (rn <=? rc)%Z with true by lia. cbn [load_nonempty]. rewrite (Hbad s' _ Hf' Hrem').
    cbn [mk_outcome o_panic o_open_ok o_err o_recs app]. rewrite rrecs_cons.
    repeat split; auto; intros H; congruence.
Qed.

End Layers.
