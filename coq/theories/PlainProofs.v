(** * PlainProofs: the PLAIN value sections written by the field templates are
    read back by the generated Read methods (and by the strict decoder of the
    file validator). *)
From Coq Require Import List NArith ZArith Lia Bool Arith PeanoNat.
From Coq Require Import ZifyN ZifyNat ZifyBool.
From PQ Require Import Bytes Schema Rle Plain.
Import ListNotations.
Local Open Scope N_scope.

Definition leaf_ok (p : prim) (v : value) : Prop := prim_ok p v = true.

Definition numeric (p : prim) : Prop :=
  match p with PBool | PString => False | _ => True end.

Lemma leaf_ok_numeric p v :
  numeric p -> leaf_ok p v -> exists n, v = VNum n /\ n < 2 ^ prim_bits p.
Proof.
  unfold leaf_ok. intros Hp Hv.
  destruct p; try contradiction; destruct v as [n|bs| |l|l];
    cbn [prim_ok] in Hv; try discriminate;
    (exists n; split; [reflexivity | apply N.ltb_lt; exact Hv]).
Qed.

Lemma leaf_ok_bool v : leaf_ok PBool v -> v = VNum 0 \/ v = VNum 1.
Proof.
  unfold leaf_ok. intros Hv.
  destruct v as [n|bs| |l|l]; cbn [prim_ok prim_bits] in Hv; try discriminate.
  change (2 ^ 1) with 2 in Hv.
  assert (Hn : n = 0 \/ n = 1) by lia.
  destruct Hn as [Hn|Hn]; subst n; auto.
Qed.

Lemma leaf_ok_string v : leaf_ok PString v -> exists bs, v = VStr bs /\ wf_bytes bs.
Proof.
  unfold leaf_ok. intros Hv.
  destruct v as [n|bs| |l|l]; cbn [prim_ok] in Hv; try discriminate.
  exists bs. split; [reflexivity | apply wf_bytesb_spec; exact Hv].
Qed.

Lemma pow_bits_size p : numeric p -> 2 ^ prim_bits p = 256 ^ N.of_nat (prim_size p).
Proof. intros Hp. destruct p; try contradiction; reflexivity. Qed.

Lemma plain_enc_nonbool p vs :
  p <> PBool -> plain_enc p vs = concat (map (plain_enc_val p) vs).
Proof. intros Hp. destruct p; try congruence; reflexivity. Qed.

Lemma plain_enc_app p a b :
  p <> PBool -> plain_enc p (a ++ b) = plain_enc p a ++ plain_enc p b.
Proof.
  intros Hp. rewrite !plain_enc_nonbool by assumption.
  rewrite map_app, concat_app. reflexivity.
Qed.

Lemma plain_enc_cons p v vs :
  p <> PBool -> plain_enc p (v :: vs) = plain_enc_val p v ++ plain_enc p vs.
Proof. intros Hp. rewrite !plain_enc_nonbool by assumption. reflexivity. Qed.

Lemma numeric_nonbool p : numeric p -> p <> PBool.
Proof. intros Hp He. subst p. exact Hp. Qed.

Lemma prim_cases p : numeric p \/ p = PString \/ p = PBool.
Proof. destruct p; cbn [numeric]; auto. Qed.

Lemma plain_enc_val_numeric p v :
  numeric p -> plain_enc_val p v = le_enc (prim_size p) (num_of v).
Proof. intros Hp. destruct p; try contradiction; reflexivity. Qed.

Lemma plain_enc_cons_numeric p v vs :
  numeric p -> plain_enc p (v :: vs) = le_enc (prim_size p) (num_of v) ++ plain_enc p vs.
Proof.
  intros Hp. rewrite plain_enc_cons, plain_enc_val_numeric by auto using numeric_nonbool.
  reflexivity.
Qed.

Lemma plain_enc_length_fixed p vs :
  numeric p -> length (plain_enc p vs) = (length vs * prim_size p)%nat.
Proof.
  intros Hp. induction vs as [|v vs IH].
  - rewrite plain_enc_nonbool by (apply numeric_nonbool; exact Hp). reflexivity.
  - rewrite plain_enc_cons_numeric, app_length, le_enc_length, IH by exact Hp. reflexivity.
Qed.

(** ** Framing: what [take_le] returns, and a prefix is never longer than the whole *)

Lemma nlen_to_nat {A} (l : list A) : N.to_nat (nlen l) = length l.
Proof. apply Nat2N.id. Qed.

Lemma leb_length_app {A} (a b : list A) : Nat.leb (length a) (length (a ++ b)) = true.
Proof. apply Nat.leb_le. rewrite app_length. apply Nat.le_add_r. Qed.

Lemma ltb_length_app {A} (a b : list A) : Nat.ltb (length (a ++ b)) (length a) = false.
Proof. rewrite Nat.ltb_antisym, leb_length_app. reflexivity. Qed.

Lemma take_le_wf k bs x rest :
  wf_bytes bs -> take_le k bs = Some (x, rest) ->
  bs = le_enc k x ++ rest /\ x < 256 ^ N.of_nat k /\ wf_bytes rest.
Proof.
  intros Hwf Ht. destruct (take_le_inv _ _ _ _ Ht) as (Hk & <- & <-).
  pose proof (wf_bytes_firstn k bs Hwf) as Hf.
  pose proof (le_enc_dec _ Hf) as He. pose proof (le_dec_bound _ Hf) as Hb.
  rewrite firstn_length_le in He, Hb by exact Hk. rewrite He, firstn_skipn.
  split; [reflexivity|]. split; [exact Hb | apply wf_bytes_skipn, Hwf].
Qed.

(** ** The generated numeric Read on a concatenation of value sections *)

Lemma read_fixed_S size n bs :
  read_fixed size (S n) bs =
  match take_le size bs with
  | Some (x, rest) => match read_fixed size n rest with
                      | Some vs => Some (VNum x :: vs)
                      | None => None
                      end
  | None => None
  end.
Proof. cbn [read_fixed]. unfold take_le. destruct (Nat.leb size (length bs)); reflexivity. Qed.

Lemma read_fixed_concat p vs extra :
  numeric p -> Forall (leaf_ok p) vs ->
  read_fixed (prim_size p) (length vs) (plain_enc p vs ++ extra) = Some vs.
Proof.
  intros Hp Hvs. induction Hvs as [|v vs Hv Hvs IH].
  - reflexivity.
  - destruct (leaf_ok_numeric p v Hp Hv) as [n [-> Hn]].
    rewrite (pow_bits_size p Hp) in Hn.
    cbn [length]. rewrite read_fixed_S, plain_enc_cons_numeric, <- app_assoc by exact Hp.
    cbn [num_of]. rewrite take_le_enc, IH by exact Hn. reflexivity.
Qed.

(** ** The generated string Read loop *)

Lemma pow256_4 : 256 ^ N.of_nat 4 = 4294967296.
Proof. reflexivity. Qed.

Lemma take_le_prefix s tl :
  nlen s < 2 ^ 32 ->
  take_le 4 (le_enc 4 (nlen s mod 2 ^ 32) ++ s ++ tl) = Some (nlen s, s ++ tl).
Proof. intros Hs. rewrite N.mod_small by exact Hs. apply take_le_enc. exact Hs. Qed.

Lemma read_strings_step n s tl :
  nlen s < 2 ^ 31 ->
  read_strings (S n) (le_enc 4 (nlen s mod 2 ^ 32) ++ s ++ tl) =
  match read_strings n tl with
  | Ok vs => Ok (VStr s :: vs)
  | Err => Err
  | Panic => Panic
  end.
Proof.
  intros Hs.
  assert (Hs' : nlen s < 2 ^ 32) by (eapply N.lt_trans; [exact Hs | reflexivity]).
  destruct (take_le_inv _ _ _ _ (take_le_prefix s tl Hs')) as (Hl & Hd & Hr).
  cbn [read_strings]. rewrite Hd, Hr.
  rewrite (proj2 (Nat.ltb_ge _ _) Hl), (proj2 (N.leb_gt _ _) Hs).
  rewrite nlen_to_nat, firstn_app_exact, skipn_app_exact, Nat.sub_diag, app_nil_r.
  (* the test "buffer empty but bytes wanted" never fires *)
  destruct s as [|b s']; [destruct tl|]; reflexivity.
Qed.

Lemma read_strings_concat vs extra :
  Forall (leaf_ok PString) vs ->
  Forall (fun v => nlen (str_of v) < 2 ^ 31) vs ->
  read_strings (length vs) (plain_enc PString vs ++ extra) = Ok vs.
Proof.
  intros Hvs. induction Hvs as [|v vs Hv Hvs IH]; intros Hlen.
  - reflexivity.
  - destruct (leaf_ok_string v Hv) as [s [-> _]].
    rewrite plain_enc_cons by discriminate.
    cbn [plain_enc_val str_of length] in *. rewrite <- !app_assoc.
    rewrite read_strings_step, IH by (inversion Hlen; assumption). reflexivity.
Qed.

(** ** Bit-packed bools *)

Lemma bools_byte_shift bs bit : bools_byte bs (bit + 1) = 2 * bools_byte bs bit.
Proof.
  revert bit. induction bs as [|b r IH]; intros bit; cbn [bools_byte].
  - reflexivity.
  - rewrite IH. destruct (b =? 0).
    + lia.
    + rewrite N.pow_add_r. change (2 ^ 1) with 2. lia.
Qed.

Lemma bools_byte_cons b r :
  bools_byte (b :: r) 0 = 2 * bools_byte r 0 + N.b2n (negb (b =? 0)).
Proof.
  cbn [bools_byte].
  rewrite (bools_byte_shift r 0).
  destruct (b =? 0); cbn [negb N.b2n]; change (2 ^ 0) with 1; lia.
Qed.

Lemma bools_byte_bound bs : bools_byte bs 0 < 2 ^ N.of_nat (length bs).
Proof.
  induction bs as [|b r IH].
  - reflexivity.
  - rewrite bools_byte_cons. cbn [length].
    rewrite Nat2N.inj_succ, N.pow_succ_r'.
    destruct (negb (b =? 0)); cbn [N.b2n]; lia.
Qed.

Lemma bools_byte_is_byte bs : (length bs <= 8)%nat -> is_byte (bools_byte bs 0).
Proof.
  intros Hl. unfold is_byte.
  pose proof (bools_byte_bound bs) as Hb.
  assert (Hp : 2 ^ N.of_nat (length bs) <= 2 ^ 8) by (apply N.pow_le_mono_r; lia).
  change (2 ^ 8) with 256 in Hp. lia.
Qed.

Lemma unpack_bools_byte_step x (c : bool) m :
  unpack_bools_byte (2 * x + N.b2n c) (S m) =
  VNum (if c then 1 else 0) :: unpack_bools_byte x m.
Proof.
  unfold unpack_bools_byte. cbn [seq map]. f_equal.
  - change (N.of_nat 0) with 0. rewrite N.testbit_0_r. reflexivity.
  - rewrite <- seq_shift, map_map. apply map_ext. intros i.
    rewrite Nat2N.inj_succ, N.testbit_succ_r. reflexivity.
Qed.

Definition bit01 (n : N) : Prop := n = 0 \/ n = 1.

Lemma unpack_bools_byte_pack bs :
  Forall bit01 bs ->
  unpack_bools_byte (bools_byte bs 0) (length bs) = map VNum bs.
Proof.
  induction 1 as [|b r Hb Hr IH].
  - reflexivity.
  - rewrite bools_byte_cons. cbn [length map].
    rewrite unpack_bools_byte_step, IH.
    destruct Hb as [Hb|Hb]; subst b; reflexivity.
Qed.

(** [pack_bools] by its recursion, the fuel gone *)
Lemma pack_bools_ind (P : list N -> bytes -> Prop) :
  P [] [] ->
  (forall bs out, bs <> [] -> P (skipn 8 bs) out -> P bs (bools_byte (firstn 8 bs) 0 :: out)) ->
  forall bs, P bs (pack_bools bs).
Proof.
  intros Hnil Hcons bs. unfold pack_bools.
  assert (H : (length bs < S (length bs))%nat) by apply Nat.lt_succ_diag_r.
  revert H. generalize (S (length bs)) as fuel. intros fuel. revert bs.
  induction fuel as [|f IH]; intros bs Hf; [inversion Hf|].
  destruct bs as [|b r]; [exact Hnil|].
  apply Hcons; [discriminate|]. apply IH.
  rewrite skipn_length. cbn [length] in *. lia.
Qed.

Lemma pack_bools_length bs : length (pack_bools bs) = Nat.div (length bs + 7) 8.
Proof.
  apply (pack_bools_ind (fun bs out => length out = Nat.div (length bs + 7) 8)); [reflexivity|].
  clear bs. intros bs out Hne IH. cbn [length]. rewrite IH, skipn_length.
  destruct bs; [congruence | cbn [length]; lia].
Qed.

Lemma pack_bools_wf bs : wf_bytes (pack_bools bs).
Proof.
  apply (pack_bools_ind (fun _ out => wf_bytes out)); [constructor|].
  clear bs. intros bs out _ IH. constructor; [|exact IH].
  apply bools_byte_is_byte. rewrite firstn_length. apply Nat.le_min_l.
Qed.

Lemma bools_of_chunk_pack bs :
  Forall bit01 bs -> bools_of_chunk (pack_bools bs) (length bs) = map VNum bs.
Proof.
  apply (pack_bools_ind (fun bs out => Forall bit01 bs ->
                           bools_of_chunk out (length bs) = map VNum bs)); [reflexivity|].
  clear bs. intros bs out _ IH Hbs.
  rewrite <- (firstn_skipn 8 bs) in Hbs. apply Forall_app in Hbs. destruct Hbs as [H1 H2].
  cbn [bools_of_chunk].
  replace (Nat.min (length bs) 8) with (length (firstn 8 bs)) by (rewrite firstn_length; lia).
  rewrite unpack_bools_byte_pack by exact H1.
  replace (length bs - length (firstn 8 bs))%nat with (length (skipn 8 bs))
    by (rewrite skipn_length, firstn_length; lia).
  rewrite IH by exact H2. rewrite <- map_app, firstn_skipn. reflexivity.
Qed.

Lemma bools_num_of vs :
  Forall (leaf_ok PBool) vs -> Forall bit01 (map num_of vs) /\ map VNum (map num_of vs) = vs.
Proof.
  induction 1 as [|v vs Hv Hvs IH].
  - split; [constructor | reflexivity].
  - destruct IH as [IH1 IH2]. cbn [map]. rewrite IH2.
    destruct (leaf_ok_bool v Hv) as [Hv0|Hv1]; subst v; cbn [num_of];
      (split; [constructor; [unfold bit01; auto | exact IH1] | reflexivity]).
Qed.

Lemma bools_of_chunk_enc vs :
  Forall (leaf_ok PBool) vs ->
  bools_of_chunk (plain_enc PBool vs) (length vs) = vs.
Proof.
  intros Hvs. destruct (bools_num_of vs Hvs) as [H1 H2].
  cbn [plain_enc].
  rewrite <- (map_length num_of vs) at 1.
  rewrite bools_of_chunk_pack by exact H1. exact H2.
Qed.

Lemma plain_enc_bool_length vs :
  length (plain_enc PBool vs) = Nat.div (length vs + 7) 8.
Proof. cbn [plain_enc]. rewrite pack_bools_length, map_length. reflexivity. Qed.

(** ** The strict decoder inverts the encoder *)

Lemma strict_strings_step n s tl :
  nlen s < 2 ^ 32 ->
  strict_strings (S n) (le_enc 4 (nlen s mod 2 ^ 32) ++ s ++ tl) =
  match strict_strings n tl with
  | Some vs => Some (VStr s :: vs)
  | None => None
  end.
Proof.
  intros Hs. cbn [strict_strings]. rewrite take_le_prefix by exact Hs.
  rewrite nlen_to_nat, leb_length_app, skipn_app_exact, firstn_app_exact.
  reflexivity.
Qed.

Lemma strict_strings_enc vs :
  Forall (leaf_ok PString) vs ->
  Forall (fun v => nlen (str_of v) < 2 ^ 32) vs ->
  strict_strings (length vs) (plain_enc PString vs) = Some vs.
Proof.
  intros Hvs. induction Hvs as [|v vs Hv Hvs IH]; intros Hlen.
  - reflexivity.
  - destruct (leaf_ok_string v Hv) as [s [-> _]].
    rewrite plain_enc_cons by discriminate.
    cbn [plain_enc_val str_of length] in *. rewrite <- app_assoc.
    rewrite strict_strings_step, IH by (inversion Hlen; assumption). reflexivity.
Qed.

Lemma plain_dec_strict_numeric p n bs :
  numeric p ->
  plain_dec_strict p n bs =
  if Nat.eqb (length bs) (n * prim_size p) then read_fixed (prim_size p) n bs else None.
Proof. intros Hp. destruct p; try contradiction; reflexivity. Qed.

Lemma plain_strict_roundtrip p vs :
  Forall (leaf_ok p) vs ->
  (p = PString -> Forall (fun v => nlen (str_of v) < 2 ^ 32) vs) ->
  plain_dec_strict p (length vs) (plain_enc p vs) = Some vs.
Proof.
  intros Hvs Hstr. destruct (prim_cases p) as [Hp|[->| ->]].
  - rewrite plain_dec_strict_numeric, plain_enc_length_fixed, Nat.eqb_refl by exact Hp.
    rewrite <- (app_nil_r (plain_enc p vs)). apply read_fixed_concat; assumption.
  - apply strict_strings_enc; [exact Hvs | apply Hstr; reflexivity].
  - unfold plain_dec_strict.
    rewrite plain_enc_bool_length, Nat.eqb_refl.
    rewrite bools_of_chunk_enc by exact Hvs.
    change (pack_bools (map num_of vs)) with (plain_enc PBool vs).
    destruct (list_eq_dec N.eq_dec (plain_enc PBool vs) (plain_enc PBool vs)) as [_|Hne];
      [reflexivity | congruence].
Qed.

(** ** GetBools over the pages of a chunk *)

Lemma get_bools_pages pages :
  Forall (fun pg => Forall (leaf_ok PBool) pg) pages ->
  get_bools (concat (map (plain_enc PBool) pages)) (map (@length value) pages) = Ok (concat pages).
Proof.
  induction 1 as [|pg pages Hpg Hpages IH].
  - reflexivity.
  - cbn [map concat].
    destruct pg as [|v pg'].
    + cbn [length get_bools]. change (plain_enc PBool []) with (@nil N).
      cbn [app]. exact IH.
    + set (pg := v :: pg') in *.
      pose proof (plain_enc_bool_length pg) as Hl.
      pose proof (bools_of_chunk_enc pg Hpg) as Hc.
      assert (Hlen : length pg = S (length pg')) by reflexivity.
      clearbody pg. rewrite Hlen. cbn [get_bools]. rewrite <- Hlen, <- Hl.
      rewrite ltb_length_app, skipn_app_exact, firstn_app_exact, IH, Hc. reflexivity.
Qed.

(** ** Every encoder output is a well-formed byte string *)

Lemma plain_enc_wf p vs : Forall (leaf_ok p) vs -> wf_bytes (plain_enc p vs).
Proof.
  intros Hvs.
  destruct (prim_cases p) as [Hp|[->| ->]]; [| |apply pack_bools_wf];
    rewrite plain_enc_nonbool by (discriminate || apply numeric_nonbool, Hp);
    apply wf_bytes_concat, Forall_map; refine (Forall_impl _ _ Hvs); intros v Hv.
  - rewrite plain_enc_val_numeric by exact Hp. apply le_enc_wf.
  - destruct (leaf_ok_string v Hv) as [s [-> Hwf]].
    apply wf_bytes_app. split; [apply le_enc_wf | exact Hwf].
Qed.

Print Assumptions plain_enc_length_fixed.
Print Assumptions plain_strict_roundtrip.
Print Assumptions read_fixed_concat.
Print Assumptions plain_enc_app.
Print Assumptions read_strings_concat.
Print Assumptions get_bools_pages.
Print Assumptions pack_bools_length.
Print Assumptions plain_enc_wf.
