(** * ForeignProofs: the reader model accepts every file of the choice-driven
    writer [Foreign.foreign_file] that uses no unsupported feature and returns
    exactly its records (property C04), and refuses every file with one
    injected unsupported feature, cleanly, after delivering the row groups
    before it (property C18). *)
From Coq Require Import List NArith ZArith Lia Bool Arith PeanoNat.
From Coq Require Import ZifyN ZifyNat ZifyBool.
From PQ Require Import WriterProofs.
From PQ Require Import Bytes Schema Dremel DremelProofs BitpackProofs Rle RleSpec RleSpecProofs RleDecProofs
     Plain PlainProofs Stats StatsProofs MetaTypes Thrift Meta MetaProofs Writer PageProofs Io IoProofs Reader
     ReaderProofs ReaderLayers ReaderProofs2 RefuseProofs Foreign.
Import ListNotations.
Local Open Scope N_scope.

Lemma same_prefix_firstn v ls : forall k,
  (k <= same_prefix v ls)%nat -> firstn k ls = repeat v k /\ (k <= length ls)%nat.
Proof.
  induction ls as [|x r IH]; intros [|k] Hk; cbn [same_prefix] in Hk;
    try (split; [reflexivity | apply Nat.le_0_l]); [lia|].
  destruct (N.eqb_spec x v) as [->|_]; [|lia].
  destruct (IH k) as [H1 H2]; [lia|]. cbn [firstn repeat length]. rewrite H1. split; [reflexivity | lia].
Qed.

Lemma groups_of_nil fuel : groups_of fuel [] = [].
Proof. destruct fuel; reflexivity. Qed.

Lemma groups_of_cons f x l : groups_of (S f) (x :: l) = firstn 8 (x :: l) :: groups_of f (skipn 8 (x :: l)).
Proof. reflexivity. Qed.

Lemma groups_of_spec w : forall n fuel (l : list N),
  length l = (8 * n)%nat -> (n <= fuel)%nat -> Forall (fun v => v < 2 ^ w) l ->
  concat (groups_of fuel l) = l /\ length (groups_of fuel l) = n /\
  Forall (fun g => groupb w g = true) (groups_of fuel l).
Proof.
  induction n as [|n IH]; intros fuel l Hl Hf Hv.
  - destruct l; [|cbn [length] in Hl; lia]. rewrite groups_of_nil. repeat split. constructor.
  - destruct fuel as [|f]; [lia|]. destruct l as [|x l]; [cbn [length] in Hl; lia|].
    rewrite groups_of_cons. set (l0 := x :: l) in *. destruct (Forall_firstn_skipn _ 8 l0 Hv) as [Hv1 Hv2].
    destruct (IH f (skipn 8 l0)) as (H1 & H2 & H3); [rewrite skipn_length; lia | lia | exact Hv2 |].
    cbn [concat length]. rewrite H1, H2, firstn_skipn. repeat split.
    constructor; [apply groupb_spec; rewrite firstn_length; split; [lia | exact Hv1] | exact H3].
Qed.

Lemma groups_wf w fuel n (l : list N) :
  length l = (8 * n)%nat -> (n <= fuel)%nat -> (1 <= n)%nat -> Forall (fun v => v < 2 ^ w) l ->
  wf_run w (RBp (groups_of fuel l)) /\ run_values (RBp (groups_of fuel l)) = l.
Proof.
  intros Hl Hf Hn Hv. destruct (groups_of_spec w n fuel l Hl Hf Hv) as (H1 & H2 & H3).
  split; [|exact H1]. apply wf_run_bp. split; [|exact H3]. intros E. rewrite E in H2. cbn [length] in H2. lia.
Qed.

Lemma segment_nil fuel w choices pad : segment fuel w choices pad [] = [].
Proof. destruct fuel; reflexivity. Qed.

Lemma segment_cons f w choices pad v l :
  segment (S f) w choices pad (v :: l) =
  let ls := v :: l in
  let c := hd 0 choices in
  let rest := tl choices in
  if N.even c then
    let m := same_prefix v ls in
    let k := S (N.to_nat ((c / 2) mod N.of_nat m)) in
    RRle (N.of_nat k) v :: segment f w rest pad (skipn k ls)
  else
    let want := (8 * S (N.to_nat ((c / 2) mod 70)))%nat in
    if Nat.leb want (length ls) then
      RBp (groups_of want (firstn want ls)) :: segment f w rest pad (skipn want ls)
    else
      let n := length ls in
      let padded := ls ++ repeat (pad mod 2 ^ w) ((8 - n mod 8) mod 8)%nat in
      [RBp (groups_of (S n) padded)].
Proof. reflexivity. Qed.

Definition seg_good (w : N) (ls : list N) (rs : list run) : Prop :=
  exists padding,
    runs_values rs = ls ++ padding /\ (length padding < 8)%nat /\ Forall (wf_run w) rs /\ Forall run_small rs.

Lemma seg_good_nil w : seg_good w [] [].
Proof. exists []. repeat split; try constructor. cbn [length]. lia. Qed.

(** the last bit-packed run of [n] levels is filled up to whole groups of 8 *)
Lemma pad8 n :
  (1 <= n -> n + (8 - n mod 8) mod 8 = 8 * ((n + 7) / 8) /\ (8 - n mod 8) mod 8 < 8 /\ 1 <= (n + 7) / 8 <= S n)%nat.
Proof. lia. Qed.

Lemma full8 g len :
  (8 * S g <= len -> Nat.min (8 * S g) len = 8 * S g /\ S g <= 8 * S g /\ 1 <= 8 * S g <= len)%nat.
Proof. lia. Qed.

Theorem segment_ok : forall fuel w choices pad ls,
  (length ls <= fuel)%nat -> Forall (fun v => v < 2 ^ w) ls -> nlen ls < 2 ^ 63 ->
  exists padding,
    runs_values (segment fuel w choices pad ls) = ls ++ padding /\ (length padding < 8)%nat /\
    Forall (wf_run w) (segment fuel w choices pad ls) /\
    Forall run_small (segment fuel w choices pad ls).
Proof.
  induction fuel as [|f IH]; intros w choices pad ls Hf Hv Hlen.
  - destruct ls; [apply seg_good_nil | cbn [length] in Hf; lia].
  - destruct ls as [|v l]; [rewrite segment_nil; apply seg_good_nil|].
    rewrite segment_cons. cbv zeta. set (ls := v :: l) in *. set (rest := tl choices). set (q := hd 0 choices / 2).
    (* a run that carries the first [k] levels, then the others by induction *)
    assert (Hstep : forall k r, (1 <= k <= length ls)%nat -> wf_run w r -> run_small r ->
                                run_values r = firstn k ls ->
                                seg_good w ls (r :: segment f w rest pad (skipn k ls))).
    { intros k r Hk Hw Hs Hr.
      destruct (IH w rest pad (skipn k ls)) as (padding & H1 & H2 & H3 & H4);
        [rewrite skipn_length; lia | apply (Forall_firstn_skipn _ k ls Hv) | unfold nlen in *; rewrite skipn_length; lia |].
      exists padding. rewrite runs_values_cons, H1, Hr, app_assoc, firstn_skipn.
      split; [reflexivity|]. split; [exact H2|]. split; constructor; assumption. }
    destruct (N.even (hd 0 choices)).
    + set (m := same_prefix v ls).
      assert (Hm : (1 <= m)%nat) by (unfold m, ls; cbn [same_prefix]; rewrite N.eqb_refl; lia).
      assert (Hq : q mod N.of_nat m < N.of_nat m) by (apply N.mod_lt; lia).
      set (k := S (N.to_nat (q mod N.of_nat m))) in *.
      destruct (same_prefix_firstn v ls k) as [Hfk Hkl]; [fold m; lia|].
      apply Hstep; [lia | | | cbn [run_values]; rewrite Nat2N.id, Hfk; reflexivity].
      * unfold wf_run. cbn [wf_runb]. unfold valb. inversion Hv as [|v' l' Hv0 _]; subst. lia.
      * cbn [run_small]. unfold nlen in Hlen. lia.
    + set (g := S (N.to_nat (q mod 70))). set (want := (8 * g)%nat).
      destruct (Nat.leb want (length ls)) eqn:Ew.
      * apply Nat.leb_le in Ew. destruct (full8 _ _ Ew) as (Hmin & Hfuel & Hk).
        destruct (groups_wf w want g (firstn want ls)) as [Hwf Hrv];
          [rewrite firstn_length; exact Hmin | exact Hfuel | apply le_n_S, Nat.le_0_l
           | apply (Forall_firstn_skipn _ want ls Hv) |].
        apply Hstep; [exact Hk | exact Hwf | exact I | exact Hrv].
      * set (n := length ls). set (pv := pad mod 2 ^ w). set (np := ((8 - n mod 8) mod 8)%nat).
        destruct (pad8 n (le_n_S _ _ (Nat.le_0_l _))) as (Hpad & Hnp & Hg). fold np in Hpad, Hnp.
        destruct (groups_wf w (S n) ((n + 7) / 8)%nat (ls ++ repeat pv np)) as [Hwf Hrv].
        -- rewrite app_length, repeat_length. exact Hpad.
        -- exact (proj2 Hg).
        -- exact (proj1 Hg).
        -- apply Forall_app. split; [exact Hv|]. apply Forall_forall. intros x Hx.
           apply repeat_spec in Hx. subst x. apply N.mod_lt, N.pow_nonzero. discriminate.
        -- exists (repeat pv np). unfold runs_values. cbn [map concat]. rewrite app_nil_r, Hrv, repeat_length.
           split; [reflexivity|]. split; [exact Hnp|]. split; constructor; auto. exact I.
Qed.

Lemma hybrid_encode_length w rs : length (hybrid_encode w rs) = (4 + length (runs_encode w rs))%nat.
Proof. unfold hybrid_encode. rewrite app_length, le_enc_length. reflexivity. Qed.

Theorem encode_levels_read w choices pad ls rest :
  In w widths -> Forall (fun v => v < 2 ^ w) ls -> nlen ls < 2 ^ 31 ->
  nlen (encode_levels w choices pad ls) < 2 ^ 31 ->
  exists padding,
    rle_read w (encode_levels w choices pad ls ++ rest) =
    Ok (ls ++ padding, length (encode_levels w choices pad ls)) /\ (length padding < 8)%nat.
Proof.
  intros Hw Hv Hlen Henc.
  destruct (segment_ok (S (length ls)) w choices pad ls) as (padding & H1 & H2 & H3 & H4);
    [lia | exact Hv | lia |].
  exists padding. split; [|exact H2]. unfold encode_levels, nlen in *. rewrite hybrid_encode_length in *.
  rewrite rle_read_ok, H1; [reflexivity | exact Hw | exact H3 | exact H4 | unfold nlen; lia].
Qed.

Lemma read_levels_foreign (lv : entry -> N) m choices pad es data l rest :
  1 <= m <= 15 -> Forall (fun e => lv e <= m) es -> nlen es < 2 ^ 31 ->
  nlen (encode_levels (Reader.bit_width m) choices pad (map lv es)) < 2 ^ 31 ->
  (l <= length data)%nat -> skipn l data = encode_levels (Reader.bit_width m) choices pad (map lv es) ++ rest ->
  read_levels (Reader.bit_width m) data l (Z.of_nat (length es)) =
  Ok (map lv es, length (encode_levels (Reader.bit_width m) choices pad (map lv es))).
Proof.
  intros Hm Hle Hlen Henc Hl Hskip.
  destruct (encode_levels_read (Reader.bit_width m) choices pad (map lv es) rest) as (padding & Hrle & _);
    [apply bit_width_widths, Hm | | unfold nlen in *; rewrite map_length; exact Hlen | exact Henc |].
  { apply Forall_map. eapply Forall_impl; [|exact Hle]. intros e. apply bit_width_bound. }
  rewrite <- (map_length lv es). apply (read_levels_rle _ _ padding); [exact Hl | rewrite Hskip; exact Hrle].
Qed.

Lemma take_record_cons2 e e' r :
  take_record (e :: e' :: r) =
  if e_rep e' =? 0 then ([e], e' :: r) else let '(a, b) := take_record (e' :: r) in (e :: a, b).
Proof. reflexivity. Qed.

Lemma take_record_spec : forall es e a r,
  take_record (e :: es) = (a, r) -> exists a', a = e :: a' /\ a' ++ r = es /\ first_rep0 r.
Proof.
  induction es as [|e' es IH]; intros e a r H.
  - injection H as <- <-. exists []. repeat split.
  - rewrite take_record_cons2 in H. destruct (e_rep e' =? 0) eqn:E.
    + injection H as <- <-. exists []. repeat split. cbn [first_rep0]. lia.
    + destruct (take_record (e' :: es)) as [a1 b1] eqn:Et. injection H as <- <-.
      destruct (IH e' a1 b1 Et) as (a' & -> & H1 & H2). exists (e' :: a'). cbn [app]. rewrite H1. repeat split. exact H2.
Qed.

Lemma take_records_S f n e es :
  take_records (S f) (S n) (e :: es) =
  let '(a, r) := take_record (e :: es) in let '(b, r') := take_records f n r in (a ++ b, r').
Proof. reflexivity. Qed.

Lemma take_records_spec : forall fuel n es a r,
  take_records fuel n es = (a, r) ->
  a ++ r = es /\ (first_rep0 es -> first_rep0 r) /\
  (forall e es', es = e :: es' -> (1 <= n)%nat -> (1 <= fuel)%nat -> exists a', a = e :: a').
Proof.
  induction fuel as [|f IH]; intros n es a r H; [|destruct n as [|n]; [|destruct es as [|e es]]].
  1-3: injection H as <- <-; repeat split; try tauto; intros; lia || discriminate.
  rewrite take_records_S in H. destruct (take_record (e :: es)) as [a1 r1] eqn:E1.
  destruct (take_records f n r1) as [b r'] eqn:E2. injection H as <- <-.
  destruct (take_record_spec _ _ _ _ E1) as (a' & -> & H1 & H2).
  destruct (IH _ _ _ _ E2) as (H3 & H4 & _).
  cbn [app]. rewrite <- app_assoc, H3, H1. repeat split.
  - intros _. exact (H4 H2).
  - intros e0 es0 [= <- _] _ _. exists (a' ++ b). reflexivity.
Qed.

Lemma split_pages_cons f sizes last e es :
  split_pages (S f) sizes last (e :: es) =
  let n := Nat.max 1 (hd last sizes) in
  let '(pg, rest) := take_records (S (length (e :: es))) n (e :: es) in
  pg :: split_pages f (tl sizes) n rest.
Proof. reflexivity. Qed.

Lemma split_pages_nil fuel sizes last : split_pages fuel sizes last [] = [].
Proof. destruct fuel; reflexivity. Qed.

Theorem split_pages_ok : forall fuel sizes last es,
  (length es <= fuel)%nat ->
  concat (split_pages fuel sizes last es) = es /\
  Forall (fun pg => pg <> []) (split_pages fuel sizes last es) /\
  (first_rep0 es -> Forall (fun pg => exists e r, pg = e :: r /\ e_rep e = 0) (split_pages fuel sizes last es)).
Proof.
  induction fuel as [|f IH]; intros sizes last es Hf.
  - destruct es; [|cbn [length] in Hf; lia]. cbn [split_pages concat]. repeat split; constructor.
  - destruct es as [|e es]; [rewrite split_pages_nil; repeat split; constructor|].
    rewrite split_pages_cons. cbv zeta. set (n := Nat.max 1 (hd last sizes)).
    destruct (take_records (S (length (e :: es))) n (e :: es)) as [pg rest] eqn:E.
    destruct (take_records_spec _ _ _ _ _ E) as (H1 & H2 & H3).
    destruct (H3 e es eq_refl) as [a' ->]; [lia | lia |].
    assert (Hlen : (length rest <= f)%nat).
    { rewrite <- H1 in Hf. cbn [app length] in Hf. rewrite app_length in Hf. lia. }
    destruct (IH (tl sizes) n rest Hlen) as (I1 & I2 & I3).
    cbn [concat]. rewrite I1. split; [exact H1|]. split; [constructor; [discriminate | exact I2]|].
    intros Hs. constructor; [|exact (I3 (H2 Hs))]. exists e, a'. split; [reflexivity | exact Hs].
Qed.

Lemma foreign_payload_eq c ch es :
  foreign_payload c ch es =
  (if 0 <? max_rep c
   then encode_levels (Reader.bit_width (max_rep c)) (cc_rep_choices ch) (cc_pad ch) (map e_rep es) else [])
  ++ (if 0 <? max_def c
      then encode_levels (Reader.bit_width (max_def c)) (cc_def_choices ch) (cc_pad ch) (map e_def es) else [])
  ++ plain_enc (c_prim c) (entry_vals es).
Proof. reflexivity. Qed.

Lemma foreign_payload_required c ch es :
  col_required c = true -> foreign_payload c ch es = plain_enc (c_prim c) (entry_vals es).
Proof.
  intros Hreq. destruct (col_required_true c Hreq) as [Hd Hr].
  rewrite foreign_payload_eq, Hd, Hr. reflexivity.
Qed.

Lemma foreign_stats_ok c ch es :
  Forall (leaf_ok (c_prim c)) (entry_vals es) ->
  Forall (fun v => nlen (str_of v) < 2 ^ 31) (entry_vals es) -> nlen es < 2 ^ 31 ->
  opt_ok statistics_ok (foreign_stats c ch es) = true.
Proof.
  intros Hty Hstr Hlen.
  pose proof (page_stats_ok (c_prim c) (col_required c) (max_def c) es Hty Hstr Hlen) as Hok.
  unfold foreign_stats. destruct (cc_stats ch =? 0); [reflexivity|].
  destruct (cc_stats ch =? 1); cbn [opt_ok]; [exact Hok|].
  unfold statistics_ok in Hok |- *.
  cbn [st_max st_min st_null_count st_distinct_count st_max_value st_min_value opt_ok].
  destruct (opt_ok bin_ok (st_max_value _)), (opt_ok bin_ok (st_min_value _)),
    (opt_ok i64_ok (st_null_count _)); cbn [andb] in Hok |- *; try reflexivity;
    rewrite ?andb_false_r in Hok; try discriminate.
Qed.

Lemma i32_ok_small n : n < 2 ^ 31 -> i32_ok (i32z n) = true.
Proof. rewrite pow31. intros H. unfold i32_ok, in_range, i32z. lia. Qed.

Lemma count_rep0_le es : count_rep0 es <= nlen es.
Proof. unfold count_rep0. apply (filter_nlen_le (fun e => e_rep e =? 0) es). Qed.

Definition inj_enc_ok (inj : injection) : Prop :=
  match inj with IEncoding e => i32_ok e = true | _ => True end.

Section WithCodec.

Variable compress : Z -> bytes -> bytes.
Variable decompress : Z -> bytes -> option bytes.
Hypothesis Hcodec : forall c x, In c [CODEC_UNCOMPRESSED; CODEC_SNAPPY; CODEC_GZIP] ->
                                decompress c (compress c x) = Some x.
Hypothesis Hident : forall x, compress CODEC_UNCOMPRESSED x = x.

Notation gpage := (bytes * list entry)%type (only parsing).

Definition gbytes (pgs : list gpage) : bytes := concat (map fst pgs).
Definition gentries (pgs : list gpage) : list entry := concat (map snd pgs).

Lemma gbytes_app a b : gbytes (a ++ b) = gbytes a ++ gbytes b.
Proof. unfold gbytes. rewrite map_app, concat_app. reflexivity. Qed.
Lemma gentries_app a b : gentries (a ++ b) = gentries a ++ gentries b.
Proof. unfold gentries. rewrite map_app, concat_app. reflexivity. Qed.

(** ** The foreign writer's pages *)

Record fpage_pre (codec : Z) (c : col) (ch : col_choice) (es : list entry) : Prop := {
  fq_codec : codec_ok codec;
  fq_nonempty : es <> [];
  fq_levels : lev_ok c es;
  fq_typed : Forall (leaf_ok (c_prim c)) (entry_vals es);
  fq_count : nlen es < 2 ^ 31;
  fq_payload : nlen (foreign_payload c ch es) < 2 ^ 31;
  fq_body : nlen (compress codec (foreign_payload c ch es)) < 2 ^ 31;
  fq_def : max_def c <= 15;
  fq_rep : max_rep c <= 15
}.

Lemma fpage_strs codec c ch es :
  fpage_pre codec c ch es -> Forall (fun v => nlen (str_of v) < 2 ^ 31) (entry_vals es).
Proof.
  intros Hpre. apply (plain_strs (c_prim c)); [exact (fq_typed _ _ _ _ Hpre)|].
  pose proof (fq_payload _ _ _ _ Hpre) as H. rewrite foreign_payload_eq, !nlen_app in H. lia.
Qed.

Definition fhdr (c : col) (ch : col_choice) (codec : Z) (inj : injection) (es : list entry) : page_header :=
  fp_header (foreign_page compress c ch codec inj es).

Definition fpb (c : col) (ch : col_choice) (codec : Z) (inj : injection) (es : list entry) : bytes :=
  fp_bytes (foreign_page compress c ch codec inj es).

Lemma fpb_eq c ch codec inj es :
  fpb c ch codec inj es = enc_page_header (fhdr c ch codec inj es) ++ compress codec (foreign_payload c ch es).
Proof. reflexivity. Qed.

Lemma fhdr_sizes c ch codec inj es :
  (0 <= ph_compressed_size (fhdr c ch codec inj es))%Z /\ (0 <= ph_uncompressed_size (fhdr c ch codec inj es))%Z /\
  length (compress codec (foreign_payload c ch es)) = Z.to_nat (ph_compressed_size (fhdr c ch codec inj es)) /\
  length (foreign_payload c ch es) = Z.to_nat (ph_uncompressed_size (fhdr c ch codec inj es)).
Proof.
  assert (H : ph_uncompressed_size (fhdr c ch codec inj es) = Z.of_N (nlen (foreign_payload c ch es)) /\
              ph_compressed_size (fhdr c ch codec inj es) = Z.of_N (nlen (compress codec (foreign_payload c ch es))))
    by (destruct inj; split; reflexivity).
  destruct H as [-> ->]. unfold nlen. lia.
Qed.

Lemma i32_ok_consts :
  i32_ok 0 = true /\ i32_ok 1 = true /\ i32_ok 2 = true /\ i32_ok 3 = true /\ i32_ok 4 = true /\
  i32_ok 305419896 = true.
Proof. repeat split. Qed.

Lemma fhdr_ok c ch codec inj es :
  fpage_pre codec c ch es -> inj_enc_ok inj -> page_header_ok (fhdr c ch codec inj es) = true.
Proof.
  intros Hpre Hinj. pose proof Hpre as [_ _ _ Hty Hcount Hp Hb _ _].
  pose proof (foreign_stats_ok c ch es Hty (fpage_strs _ _ _ _ Hpre) Hcount) as Hst.
  assert (Hr0 : i32_ok (i32z (count_rep0 es)) = true).
  { apply i32_ok_small. pose proof (count_rep0_le es). lia. }
  apply i32_ok_small in Hcount, Hp, Hb.
  assert (Hcrc : opt_ok i32_ok (if cc_crc ch then Some 305419896%Z else None) = true)
    by (destruct (cc_crc ch); reflexivity).
  unfold fhdr, foreign_page. cbv zeta. cbn [fp_header].
  destruct inj; unfold page_header_ok, data_page_header_ok, data_page_header_v2_ok;
    cbn [ph_type ph_uncompressed_size ph_compressed_size ph_crc ph_data ph_index ph_dict ph_data_v2 opt_ok
         dph_num_values dph_encoding dph_def_encoding dph_rep_encoding dph_statistics
         v2_num_values v2_num_nulls v2_num_rows v2_encoding v2_def_len v2_rep_len v2_statistics];
    cbn [inj_enc_ok] in Hinj;
    rewrite ?Hcount, ?Hp, ?Hb, ?Hst, ?Hr0, ?Hcrc, ?Hinj; reflexivity.
Qed.

Definition fdph (c : col) (ch : col_choice) (es : list entry) : data_page_header :=
  {| dph_num_values := i32z (nlen es); dph_encoding := ENC_PLAIN; dph_def_encoding := ENC_RLE;
     dph_rep_encoding := ENC_RLE; dph_statistics := foreign_stats c ch es |}.

(** injections that leave the page header as it is *)
Definition inj_plain (inj : injection) : Prop :=
  match inj with INone | ICodec _ => True | _ => False end.

Lemma inj_plain_enc_ok inj : inj_plain inj -> inj_enc_ok inj.
Proof. destruct inj; intros []; exact I. Qed.

Lemma supported_fhdr c ch codec inj es :
  inj_plain inj -> forall defs reps, supported_page (fhdr c ch codec inj es) defs reps = Some (fdph c ch es).
Proof. intros Hinj defs reps. destruct inj; try destruct Hinj; destruct defs, reps; reflexivity. Qed.

(** the levels are any well-formed run list; the padding of the last
    bit-packed group is cut off by [levels[:NumValues]] *)
Lemma foreign_page_good codec c ch inj es :
  fpage_pre codec c ch es -> inj_plain inj -> page_good decompress codec c (fpb c ch codec inj es, es).
Proof.
  intros Hpre Hinj. pose proof Hpre as [Hcod Hne Hlev Hty Hcount Hpl _ Hdef15 Hrep15].
  pose proof (codec_id_of compress decompress Hcodec Hident) as Hid.
  pose proof (supported_fhdr c ch codec inj es Hinj) as Hsp.
  destruct (fhdr_sizes c ch codec inj es) as (Hc0 & Hu0 & Hbl & Hul).
  pose proof (Hcodec codec (foreign_payload c ch es) Hcod) as Hdc.
  assert (Hnv : dph_num_values (fdph c ch es) = Z.of_nat (length es)) by (cbn; unfold i32z, nlen; lia).
  rewrite fpb_eq. set (ph := fhdr c ch codec inj es) in *.
  assert (Hloc : forall rest, dec_page_header (enc_page_header ph ++ rest) = Some (ph, rest)).
  { intros rest. apply dec_enc_page_header, fhdr_ok; [exact Hpre | apply inj_plain_enc_ok, Hinj]. }
  split; [exact Hne|]. split; [cbn [fst]; rewrite app_length; pose proof (enc_page_header_nonempty ph); lia|].
  split; [exact Hlev|]. split; [exact Hty|]. split; [exact (fpage_strs _ _ _ _ Hpre)|]. cbn [fst snd].
  destruct (col_required c) eqn:Hreq.
  - rewrite (foreign_payload_required c ch es Hreq) in Hdc at 2. rewrite (foreign_payload_required c ch es Hreq) in Hul.
    apply (req_step_intro decompress codec c ph (fdph c ch es)); auto.
  - pose proof (col_required_false_max_def c Hreq) as Hdef1.
    set (payload := foreign_payload c ch es) in *.
    set (vals := plain_enc (c_prim c) (entry_vals es)).
    set (dsec := encode_levels (Reader.bit_width (max_def c)) (cc_def_choices ch) (cc_pad ch) (map e_def es)).
    set (rsec := if 0 <? max_rep c
                 then encode_levels (Reader.bit_width (max_rep c)) (cc_rep_choices ch) (cc_pad ch) (map e_rep es)
                 else []).
    assert (Hpay : payload = rsec ++ dsec ++ vals).
    { unfold payload. rewrite foreign_payload_eq. replace (0 <? max_def c) with true by lia. reflexivity. }
    rewrite Hpay, !nlen_app in Hpl.
    apply (opt_step_intro decompress codec c ph (fdph c ch es) _ _ payload (length rsec) (length dsec)); auto.
    + unfold rsec in *. destruct (0 <? max_rep c) eqn:Erep; [|reflexivity]. rewrite Hnv.
      apply (read_levels_foreign e_rep _ _ _ es payload 0%nat (dsec ++ vals));
        [lia | | exact Hcount | lia | lia | rewrite Hpay; reflexivity].
      eapply Forall_impl; [|exact Hlev]. intros e He. apply entry_levels_ok_inv in He. lia.
    + rewrite Hnv. apply (read_levels_foreign e_def _ _ _ es payload _ vals);
        [lia | | exact Hcount | fold dsec; lia | rewrite Hpay, app_length; lia | rewrite Hpay; apply skipn_app_exact].
      eapply Forall_impl; [|exact Hlev]. intros e He. apply entry_levels_ok_inv in He. lia.
    + rewrite Hpay, !app_length. lia.
    + rewrite Hpay, skipn_add, !skipn_app_exact. reflexivity.
    + apply (count_max_def_levels c es Hlev).
Qed.

(** both page loops read the header, then ask supportedPage and pageData; [k]
    is the rest of the iteration *)
Lemma header_refused {B} codec ph body defs reps (k : data_page_header -> bytes -> M B) :
  page_header_ok ph = true -> supported_page ph defs reps = None \/ ~ codec_ok codec ->
  fails (ph' <-- m_read_struct dec_page_header ;;
         match supported_page ph' defs reps with
         | None => fail_err
         | Some d => data <-- page_data decompress codec ph' ;; k d data
         end)%io (enc_page_header ph ++ body).
Proof.
  intros Hok Hwhy.
  apply (reads_fails_bind _ _ _ _ _
           (m_read_struct_ok dec_page_header ph _ (fun rest => dec_enc_page_header ph rest Hok))).
  destruct Hwhy as [-> | Hc]; [intros s rest _ _; reflexivity|].
  destruct (supported_page ph defs reps); [|intros s rest _ _; reflexivity].
  apply fails_bind. intros s rest _ _. apply page_data_unsupported_codec; intros ->; apply Hc; cbn; auto.
Qed.

Lemma page_bad_intro codec c ph body :
  page_header_ok ph = true ->
  supported_page ph (negb (col_required c)) (negb (col_required c) && (0 <? max_rep c)) = None \/ ~ codec_ok codec ->
  page_bad decompress codec c (enc_page_header ph ++ body).
Proof.
  intros Hok Hwhy.
  split; [rewrite app_length; pose proof (enc_page_header_nonempty ph); lia|].
  destruct (col_required c); cbn [negb andb] in Hwhy.
  - intros s rest f pgn nread acc sizes Hfail Hrem Hlt.
    cbn [do_read_required]. replace (nread <? pgn)%Z with true by lia.
    exact (header_refused codec ph body _ _ _ Hok Hwhy s rest Hfail Hrem).
  - intros s rest f size nread acc Hfail Hrem Hlt.
    cbn [do_read_optional]. replace (nread <? size)%Z with true by lia.
    exact (header_refused codec ph body _ _ _ Hok Hwhy s rest Hfail Hrem).
Qed.

Definition inj_rejects (c : col) (inj : injection) : Prop :=
  match inj with
  | IIndexPage | IDataPageV2 => True
  | IEncoding e => e <> ENC_PLAIN /\ i32_ok e = true
  | IDefBitPacked => 0 < max_def c
  | IRepBitPacked => 0 < max_rep c
  | _ => False
  end.

Lemma supported_fhdr_rejects c ch codec inj es :
  inj_rejects c inj ->
  supported_page (fhdr c ch codec inj es) (negb (col_required c)) (negb (col_required c) && (0 <? max_rep c)) = None.
Proof.
  intros Hinj. destruct inj as [| | | |e| | |z]; cbn [inj_rejects] in Hinj; try contradiction; try reflexivity.
  - eapply supported_page_encoding; [reflexivity | exact (proj1 Hinj)].
  - destruct (col_required c) eqn:Hreq; [destruct (col_required_true c Hreq); lia|].
    eapply supported_page_def_levels; [reflexivity | discriminate].
  - destruct (col_required c) eqn:Hreq; [destruct (col_required_true c Hreq); lia|].
    replace (0 <? max_rep c) with true by lia. eapply supported_page_rep_levels; [reflexivity | discriminate].
Qed.

Lemma inj_rejects_enc_ok c inj : inj_rejects c inj -> inj_enc_ok inj.
Proof. destruct inj; cbn [inj_rejects inj_enc_ok]; tauto. Qed.

Lemma dict_page_rejected codec bc c :
  nlen (compress bc [0; 0; 0; 0]) < 2 ^ 31 -> page_bad decompress codec c (fp_bytes (dict_page compress bc)).
Proof.
  intros Hlen.
  change (fp_bytes (dict_page compress bc))
    with (enc_page_header (fp_header (dict_page compress bc)) ++ compress bc [0; 0; 0; 0]).
  apply page_bad_intro.
  - unfold dict_page, page_header_ok, dictionary_page_header_ok.
    cbn [fp_header ph_type ph_uncompressed_size ph_compressed_size ph_crc ph_data ph_index ph_dict ph_data_v2 opt_ok
         dict_num_values dict_encoding].
    rewrite (i32_ok_small _ Hlen). reflexivity.
  - left. apply supported_page_type. discriminate.
Qed.

(** ** The foreign writer's column chunks *)

Definition fch (fc : file_choice) (g j : nat) : col_choice := pick_choice fc (g * 31 + j).

(** the codec announced in the footer / the codec the bodies are compressed with *)
Definition fcodec (fc : file_choice) (g j : nat) : Z :=
  match col_inj fc g j with ICodec z => z | _ => cc_codec (fch fc g j) end.
Definition fbody_codec (fc : file_choice) (g j : nat) : Z :=
  match col_inj fc g j with ICodec _ => CODEC_UNCOMPRESSED | _ => cc_codec (fch fc g j) end.

Definition fpages_es (fs : list field) (fc : file_choice) (g j : nat) (recs : list value) : list (list entry) :=
  let es := column_entries fs j recs in
  split_pages (S (length es)) (cc_page_sizes (fch fc g j)) 1 es.

Definition fdata_pages (fs : list field) (fc : file_choice) (g j : nat) (c : col) (recs : list value) : list fpage :=
  map (fun '(p, pes) => foreign_page compress c (fch fc g j) (fbody_codec fc g j) (inj_for fc g j p) pes)
      (index_from 0 (fpages_es fs fc g j recs)).

Definition fall_pages (fs : list field) (fc : file_choice) (g j : nat) (c : col) (recs : list value) : list fpage :=
  match col_inj fc g j with
  | IDictPage => dict_page compress (fbody_codec fc g j) :: fdata_pages fs fc g j c recs
  | _ => fdata_pages fs fc g j c recs
  end.

Definition fchunk_bytes (fs : list field) (fc : file_choice) (g : nat) (recs : list value) (ic : nat * col) : bytes :=
  concat (map fp_bytes (fall_pages fs fc g (fst ic) (snd ic) recs)).

Definition fcm (fc : file_choice) (g j : nat) (c : col) (pos : N) (pages : list fpage) : column_meta :=
  {| cm_type := prim_type (c_prim c);
     cm_encodings := [ENC_PLAIN; ENC_RLE];
     cm_path := c_path c;
     cm_codec := fcodec fc g j;
     cm_num_values := Z.of_N (sumN (map fp_count pages));
     cm_total_uncompressed := Z.of_N (sumN (map fp_unc pages));
     cm_total_compressed := Z.of_N (nlen (concat (map fp_bytes pages)));
     cm_key_value := None;
     cm_data_page_offset := Z.of_N pos;
     cm_index_page_offset := None;
     cm_dictionary_page_offset := match col_inj fc g j with IDictPage => Some (Z.of_N pos) | _ => None end;
     cm_statistics := None;
     cm_encoding_stats :=
       if cc_encoding_stats (fch fc g j)
       then Some [ {| pes_page_type := PT_DATA_PAGE; pes_encoding := ENC_PLAIN; pes_count := Z.of_nat (length pages) |} ]
       else None |}.

(** stated on the projections so that no proof has to look into the chunk *)
Lemma foreign_chunk_fst fs fc g j c recs pos :
  fst (foreign_chunk compress fs fc g j c recs pos) = fchunk_bytes fs fc g recs (j, c).
Proof. reflexivity. Qed.

Lemma foreign_chunk_cm fs fc g j c recs pos :
  cc_meta (snd (foreign_chunk compress fs fc g j c recs pos)) = Some (fcm fc g j c pos (fall_pages fs fc g j c recs)).
Proof. reflexivity. Qed.

Lemma fcol_plain fc g j :
  match col_inj fc g j with IDictPage | ICodec _ => False | _ => True end ->
  fcodec fc g j = cc_codec (fch fc g j) /\ fbody_codec fc g j = cc_codec (fch fc g j) /\
  forall fs c recs, fall_pages fs fc g j c recs = fdata_pages fs fc g j c recs.
Proof. unfold fcodec, fbody_codec, fall_pages. destruct (col_inj fc g j); intros []; repeat split. Qed.

Lemma fbody_codec_ok fc g j : codec_ok (cc_codec (fch fc g j)) -> codec_ok (fbody_codec fc g j).
Proof. intros H. unfold fbody_codec. destruct (col_inj fc g j); try exact H. left. reflexivity. Qed.

Lemma inj_for_at fc g j p inj q :
  fc_inject fc = Some (g, j, p, inj) -> inj_for fc g j q = if Nat.eqb q p then inj else INone.
Proof. intros H. unfold inj_for. rewrite H, !Nat.eqb_refl. reflexivity. Qed.

Lemma col_inj_at fc g j p inj : fc_inject fc = Some (g, j, p, inj) -> col_inj fc g j = inj.
Proof. intros H. unfold col_inj. rewrite H, !Nat.eqb_refl. reflexivity. Qed.

Lemma col_inj_other fc g j p inj g' j' :
  fc_inject fc = Some (g, j, p, inj) -> (g' <> g \/ j' <> j) -> col_inj fc g' j' = INone.
Proof.
  intros H Hne. unfold col_inj. rewrite H.
  destruct (Nat.eqb_spec g' g) as [->|_]; destruct (Nat.eqb_spec j' j) as [->|_]; try reflexivity. tauto.
Qed.

Lemma col_inj_none_inj_for fc g j p : col_inj fc g j = INone -> inj_for fc g j p = INone.
Proof.
  unfold col_inj, inj_for. destruct (fc_inject fc) as [[[[g' j'] p'] i]|]; [|reflexivity].
  destruct (Nat.eqb g g' && Nat.eqb j j'); [|reflexivity].
  intros ->. destruct (Nat.eqb p p'); reflexivity.
Qed.

Lemma fdata_pages_split fs fc g j p inj c recs pre esp post :
  fc_inject fc = Some (g, j, p, inj) -> fpages_es fs fc g j recs = pre ++ esp :: post -> length pre = p ->
  exists tailp,
    fdata_pages fs fc g j c recs =
    map (foreign_page compress c (fch fc g j) (fbody_codec fc g j) INone) pre ++
    foreign_page compress c (fch fc g j) (fbody_codec fc g j) inj esp :: tailp.
Proof.
  intros Hinj Hsplit Hl. unfold fdata_pages. rewrite Hsplit, index_from_app, map_app.
  cbn [index_from map Nat.add]. rewrite Hl, (inj_for_at fc g j p inj p Hinj), Nat.eqb_refl. eexists. f_equal.
  apply map_index_from_range. intros q x Hq. rewrite (inj_for_at fc g j p inj q Hinj).
  replace (Nat.eqb q p) with false by lia. reflexivity.
Qed.

Lemma fall_pages_plain fs fc g j c recs :
  col_inj fc g j = INone ->
  fall_pages fs fc g j c recs =
  map (foreign_page compress c (fch fc g j) (cc_codec (fch fc g j)) INone) (fpages_es fs fc g j recs).
Proof.
  intros Hn. destruct (fcol_plain fc g j) as (_ & Hbc & ->); [rewrite Hn; exact I|].
  unfold fdata_pages. rewrite Hbc.
  apply map_index_from_range. intros p x _. rewrite (col_inj_none_inj_for fc g j p Hn). reflexivity.
Qed.

Lemma fpages_es_concat fs fc g j recs : concat (fpages_es fs fc g j recs) = column_entries fs j recs.
Proof. unfold fpages_es. cbv zeta. apply split_pages_ok. lia. Qed.

Lemma fpages_es_nonempty fs fc g j recs : Forall (fun pg => pg <> []) (fpages_es fs fc g j recs).
Proof. unfold fpages_es. cbv zeta. apply split_pages_ok. lia. Qed.

Lemma fpages_es_start0 fs fc g j c recs :
  nth_error (columns fs) j = Some c -> Forall (fun v => has_tyb (TGroup fs) v = true) recs ->
  Forall (fun pg => exists e r, pg = e :: r /\ e_rep e = 0) (fpages_es fs fc g j recs).
Proof.
  intros Hc Hty. unfold fpages_es. cbv zeta. apply split_pages_ok; [lia|].
  apply (column_entries_ok fs recs j c Hty Hc).
Qed.

Lemma fall_pages_count fs fc g j c recs :
  sumN (map fp_count (fall_pages fs fc g j c recs)) = nlen (column_entries fs j recs).
Proof.
  assert (H : sumN (map fp_count (fdata_pages fs fc g j c recs)) = nlen (column_entries fs j recs)).
  { unfold fdata_pages. rewrite map_map, (map_index_from_range (@nlen entry) _ _ 0).
    - rewrite sumN_nlen_concat, fpages_es_concat. reflexivity.
    - intros q x _. reflexivity. }
  unfold fall_pages. destruct (col_inj fc g j); exact H.
Qed.

Lemma fcm_fields fs fc g j c recs pos :
  let cm := fcm fc g j c pos (fall_pages fs fc g j c recs) in
  cm_codec cm = fcodec fc g j /\
  cm_num_values cm = Z.of_nat (length (column_entries fs j recs)) /\
  cm_total_compressed cm = Z.of_nat (length (fchunk_bytes fs fc g recs (j, c))).
Proof.
  cbn [fcm cm_codec cm_num_values cm_total_compressed]. rewrite fall_pages_count. unfold nlen.
  rewrite !nat_N_Z. repeat split.
Qed.

Lemma fcm_find fs fc g j c pos pages :
  NoDup (map c_path (columns fs)) -> nth_error (columns fs) j = Some c ->
  find_col (columns fs) (cm_path (fcm fc g j c pos pages)) 0 = Some (j, c).
Proof. apply find_col_nth. Qed.

Definition fgp (c : col) (ch : col_choice) (codec : Z) (l : list (list entry)) : list gpage :=
  map (fun pes => (fpb c ch codec INone pes, pes)) l.

Lemma pbytes_fgp c ch codec l :
  pbytes (fgp c ch codec l) = concat (map fp_bytes (map (foreign_page compress c ch codec INone) l)).
Proof. unfold pbytes, fgp. rewrite !map_map. reflexivity. Qed.

Lemma pentries_fgp c ch codec l : pentries (fgp c ch codec l) = concat l.
Proof. unfold pentries, fgp. rewrite map_map. cbn [snd]. rewrite map_id. reflexivity. Qed.

Lemma fgp_good c ch codec l :
  Forall (fpage_pre codec c ch) l -> Forall (page_good decompress codec c) (fgp c ch codec l).
Proof.
  intros H. apply Forall_map. eapply Forall_impl; [|exact H]. intros es Hes.
  apply foreign_page_good; [exact Hes | exact I].
Qed.

(** sizes that must fit the int32 fields of a page header *)
Definition fpage_sizes_ok (codec : Z) (c : col) (ch : col_choice) (es : list entry) : Prop :=
  nlen es < 2 ^ 31 /\ nlen (foreign_payload c ch es) < 2 ^ 31 /\
  nlen (compress codec (foreign_payload c ch es)) < 2 ^ 31.

Definition fshape_ok (fs : list field) : Prop :=
  ty_okb (TGroup fs) = true /\ NoDup (map c_path (columns fs)) /\
  Forall (fun c => max_def c <= 15 /\ max_rep c <= 15) (columns fs).

Definition fbatch_ok (fs : list field) (recs : list value) : Prop :=
  recs <> [] /\ Forall (fun v => has_tyb (TGroup fs) v = true) recs.

Lemma fpages_pre fs fc g j c recs codec :
  fshape_ok fs -> fbatch_ok fs recs -> nth_error (columns fs) j = Some c -> codec_ok codec ->
  Forall (fpage_sizes_ok codec c (fch fc g j)) (fpages_es fs fc g j recs) ->
  Forall (fpage_pre codec c (fch fc g j)) (fpages_es fs fc g j recs).
Proof.
  intros (_ & _ & Hdepth) (Hne & Hty) Hc Hcod Hsz.
  rewrite Forall_forall in Hdepth. destruct (Hdepth c (nth_error_In _ _ Hc)) as [Hd Hr].
  destruct (column_entries_ok fs recs j c Hty Hc) as (Hwf & _).
  pose proof (entries_wf_levels c _ Hwf) as Hlev. pose proof (entries_wf_vals c _ Hwf) as Hval. unfold lev_ok in *.
  rewrite <- (fpages_es_concat fs fc g j recs) in Hlev, Hval. rewrite entry_vals_concat in Hval.
  apply Forall_concat in Hlev, Hval. pose proof (fpages_es_nonempty fs fc g j recs) as Hnon.
  rewrite Forall_forall in *. intros es Hes. destruct (Hsz es Hes) as (H1 & H2 & H3).
  constructor; auto; [exact (Hlev es Hes) | apply Hval, in_map, Hes].
Qed.

Theorem foreign_chunk_reads fs fc g j c recs pos :
  fshape_ok fs -> fbatch_ok fs recs -> nth_error (columns fs) j = Some c ->
  col_inj fc g j = INone -> codec_ok (cc_codec (fch fc g j)) ->
  Forall (fpage_sizes_ok (cc_codec (fch fc g j)) c (fch fc g j)) (fpages_es fs fc g j recs) ->
  chunk_reads decompress c (fcm fc g j c pos (fall_pages fs fc g j c recs))
              (fchunk_bytes fs fc g recs (j, c)) (column_entries fs j recs).
Proof.
  intros Hsh Hb Hc Hn Hcod Hsz. destruct (fcm_fields fs fc g j c recs pos) as (Hcodec' & Hnv & Htot).
  set (pgs := fgp c (fch fc g j) (cc_codec (fch fc g j)) (fpages_es fs fc g j recs)).
  assert (Hbytes : fchunk_bytes fs fc g recs (j, c) = pbytes pgs).
  { unfold fchunk_bytes, pgs. cbn [fst snd]. rewrite (fall_pages_plain fs fc g j c recs Hn), pbytes_fgp. reflexivity. }
  assert (Hes : column_entries fs j recs = pentries pgs).
  { unfold pgs. rewrite pentries_fgp, fpages_es_concat. reflexivity. }
  rewrite Hbytes in Htot |- *. rewrite Hes in Hnv |- *.
  apply (read_chunk_good decompress (cc_codec (fch fc g j)) c pgs); try assumption.
  - apply fgp_good, (fpages_pre fs fc g j c recs _ Hsh Hb Hc Hcod Hsz).
  - rewrite Hcodec'. unfold fcodec. rewrite Hn. reflexivity.
Qed.

Definition inj_effective (c : col) (ch : col_choice) (inj : injection) : Prop :=
  match inj with
  | INone => False
  | IDictPage => nlen (compress (cc_codec ch) [0; 0; 0; 0]) < 2 ^ 31
  | ICodec z => ~ codec_ok z
  | _ => inj_rejects c inj
  end.

Lemma inj_effective_cases c ch inj :
  inj_effective c ch inj ->
  (inj = IDictPage /\ nlen (compress (cc_codec ch) [0; 0; 0; 0]) < 2 ^ 31) \/
  (exists z, inj = ICodec z /\ ~ codec_ok z) \/
  (inj_rejects c inj /\ match inj with IDictPage | ICodec _ => False | _ => True end).
Proof.
  destruct inj as [| | | |e| | |z]; cbn [inj_effective]; intros Heff; try contradiction; auto.
  right. left. exists z. split; [reflexivity | exact Heff].
Qed.

Lemma fchunk_split fs fc g j p inj c recs :
  fshape_ok fs -> fbatch_ok fs recs -> nth_error (columns fs) j = Some c ->
  fc_inject fc = Some (g, j, p, inj) -> codec_ok (cc_codec (fch fc g j)) ->
  Forall (fpage_sizes_ok (fbody_codec fc g j) c (fch fc g j)) (fpages_es fs fc g j recs) ->
  (p < length (fpages_es fs fc g j recs))%nat -> inj_effective c (fch fc g j) inj ->
  exists good bad tail,
    fchunk_bytes fs fc g recs (j, c) = pbytes good ++ bad ++ tail /\
    Forall (page_good decompress (fcodec fc g j) c) good /\ page_bad decompress (fcodec fc g j) c bad /\
    (length (pentries good) < length (column_entries fs j recs))%nat.
Proof.
  intros Hsh Hb Hc Hinj Hcod Hsz Hp Heff.
  pose proof (col_inj_at fc g j p inj Hinj) as Hci.
  pose proof (fpages_pre fs fc g j c recs _ Hsh Hb Hc (fbody_codec_ok fc g j Hcod) Hsz) as Hpre.
  assert (Hentries : (1 <= length (column_entries fs j recs))%nat).
  { destruct (column_entries_ok fs recs j c (proj2 Hb) Hc) as (_ & _ & _ & Hne).
    specialize (Hne (proj1 Hb)). destruct (column_entries fs j recs); [congruence | cbn [length]; lia]. }
  unfold fchunk_bytes. cbn [fst snd].
  set (ch := fch fc g j) in *. set (bc := fbody_codec fc g j) in *.
  destruct (inj_effective_cases c ch inj Heff) as [[-> Hd] | [(z & -> & Hz) | [Hrej Hplain]]].
  - (* dictionary page: refused before any data page *)
    unfold fall_pages, fcodec. rewrite Hci.
    exists [], (fp_bytes (dict_page compress bc)), (concat (map fp_bytes (fdata_pages fs fc g j c recs))).
    split; [reflexivity|]. split; [constructor|]. split; [|exact Hentries].
    apply dict_page_rejected. unfold bc, fbody_codec. rewrite Hci. exact Hd.
  - (* unsupported codec: the first page is refused, whichever page carries the mark *)
    unfold fall_pages, fcodec, fdata_pages. rewrite Hci.
    destruct (fpages_es fs fc g j recs) as [|es0 l]; [cbn [length] in Hp; lia|].
    inversion Hpre as [|? ? Hpre0 _].
    eexists [], (fpb c ch bc (inj_for fc g j 0) es0), _.
    split; [reflexivity|]. split; [constructor|]. split; [|exact Hentries].
    rewrite fpb_eq. apply page_bad_intro; [|right; exact Hz].
    apply (fhdr_ok c ch bc _ es0 Hpre0), inj_plain_enc_ok.
    rewrite (inj_for_at fc g j p _ 0 Hinj). destruct (Nat.eqb 0 p); exact I.
  - (* index page, DATA_PAGE_V2, value encoding, BIT_PACKED levels: the pages
       before [p] are read, page [p] is refused by supportedPage *)
    destruct (fcol_plain fc g j) as (-> & Hbc & ->); [rewrite Hci; exact Hplain|]. rewrite <- Hbc. fold bc.
    destruct (nth_error_lt p _ Hp) as (esp & Hesp).
    destruct (nth_error_split _ _ Hesp) as (pre & post & Hsplit & Hlpre).
    destruct (fdata_pages_split fs fc g j p inj c recs pre esp post Hinj Hsplit Hlpre) as (tailp & Hdp).
    fold ch bc in Hdp.
    pose proof (fpages_es_concat fs fc g j recs) as Hcat.
    rewrite Hsplit in Hpre, Hcat. apply Forall_app in Hpre. destruct Hpre as [Hpre1 Hpre2].
    inversion Hpre2 as [|? ? Hprep _]. pose proof (fq_nonempty _ _ _ _ Hprep).
    exists (fgp c ch bc pre), (fpb c ch bc inj esp), (concat (map fp_bytes tailp)).
    split; [rewrite Hdp, map_app, concat_app, pbytes_fgp; reflexivity|].
    split; [apply fgp_good; exact Hpre1|]. split.
    { rewrite fpb_eq. apply page_bad_intro; [|left; apply supported_fhdr_rejects, Hrej].
      exact (fhdr_ok c ch bc inj esp Hprep (inj_rejects_enc_ok c inj Hrej)). }
    rewrite pentries_fgp, <- Hcat, concat_app, app_length. cbn [concat]. rewrite app_length.
    destruct esp; [congruence | cbn [length]; lia].
Qed.

Theorem foreign_chunk_fails fs fc g j p inj c recs pos :
  fshape_ok fs -> fbatch_ok fs recs -> nth_error (columns fs) j = Some c ->
  fc_inject fc = Some (g, j, p, inj) -> codec_ok (cc_codec (fch fc g j)) ->
  Forall (fpage_sizes_ok (fbody_codec fc g j) c (fch fc g j)) (fpages_es fs fc g j recs) ->
  (p < length (fpages_es fs fc g j recs))%nat -> inj_effective c (fch fc g j) inj ->
  chunk_fails decompress c (fcm fc g j c pos (fall_pages fs fc g j c recs)) (fchunk_bytes fs fc g recs (j, c)).
Proof.
  intros Hsh Hb Hc Hinj Hcod Hsz Hp Heff. destruct (fcm_fields fs fc g j c recs pos) as (Hcodec' & Hnv & Htot).
  destruct (fchunk_split fs fc g j p inj c recs Hsh Hb Hc Hinj Hcod Hsz Hp Heff)
    as (good & bad & tail & Hbytes & Hgood & Hbad & Hlt).
  rewrite Hbytes in Htot |- *. rewrite app_assoc. apply fails_app.
  apply (read_chunk_bad decompress (fcodec fc g j) c good bad _ Hgood Hbad Hcodec').
  - rewrite Hnv. lia.
  - rewrite Htot, !app_length. destruct Hbad as [Hb1 _]. lia.
Qed.

(** ** The foreign writer's row groups *)

Definition fitem (fs : list field) (fc : file_choice) (g : nat) (recs : list value) (ic : nat * col) : citem :=
  {| ci_idx := fst ic; ci_col := snd ic; ci_bytes := fchunk_bytes fs fc g recs ic;
     ci_es := column_entries fs (fst ic) recs |}.

Definition frg_bytes (fs : list field) (fc : file_choice) (g : nat) (recs : list value) : bytes :=
  concat (map (fchunk_bytes fs fc g recs) (index_from 0 (columns fs))).

Definition fcc_of (fs : list field) (fc : file_choice) (g : nat) (recs : list value) (ic : nat * col)
           (cc : column_chunk) : Prop :=
  exists pos, cc = snd (foreign_chunk compress fs fc g (fst ic) (snd ic) recs pos).

Lemma foreign_chunks_spec fs fc g recs : forall ics pos,
  fst (fst (foreign_chunks compress fs fc g ics recs pos)) = concat (map (fchunk_bytes fs fc g recs) ics) /\
  Forall2 (fcc_of fs fc g recs) ics (snd (fst (foreign_chunks compress fs fc g ics recs pos))).
Proof.
  induction ics as [|[j c] ics IH]; intros pos; [split; [reflexivity|constructor]|].
  cbn [foreign_chunks].
  pose proof (foreign_chunk_fst fs fc g j c recs pos) as Hb.
  destruct (foreign_chunk compress fs fc g j c recs pos) as [b cc] eqn:Ech.
  specialize (IH (pos + nlen b)).
  destruct (foreign_chunks compress fs fc g ics recs (pos + nlen b)) as [[bs ccs] pos'].
  cbn [fst snd] in *. destruct IH as [IH1 IH2]. split.
  - cbn [map concat]. rewrite IH1, Hb. reflexivity.
  - constructor; [|exact IH2]. exists pos. cbn [fst snd]. rewrite Ech. reflexivity.
Qed.

Definition frg_pre (fs : list field) (fc : file_choice) (g : nat) (recs : list value) : Prop :=
  fbatch_ok fs recs /\
  forall j c, nth_error (columns fs) j = Some c ->
    codec_ok (cc_codec (fch fc g j)) /\
    Forall (fpage_sizes_ok (fbody_codec fc g j) c (fch fc g j)) (fpages_es fs fc g j recs).

Lemma fcc_reads fs fc g recs ic cc :
  fshape_ok fs -> frg_pre fs fc g recs -> In ic (index_from 0 (columns fs)) ->
  col_inj fc g (fst ic) = INone ->
  fcc_of fs fc g recs ic cc -> cc_reads decompress (columns fs) (fitem fs fc g recs ic) cc.
Proof.
  intros Hsh [Hb Hcols] Hin Hn [pos ->]. destruct ic as [j c]. cbn [fst snd] in *.
  destruct (index_from_In _ 0 j c Hin) as [_ Hnth]. rewrite Nat.sub_0_r in Hnth.
  destruct (Hcols j c Hnth) as [Hcod Hsz]. unfold fbody_codec in Hsz. rewrite Hn in Hsz.
  eexists. split; [apply foreign_chunk_cm|].
  split; [exact (fcm_find fs fc g j c _ _ (proj1 (proj2 Hsh)) Hnth)|].
  exact (foreign_chunk_reads fs fc g j c recs _ Hsh Hb Hnth Hn Hcod Hsz).
Qed.

Lemma frg_bytes_items fs fc g recs ics :
  concat (map (fchunk_bytes fs fc g recs) ics) = cbytes (map (fitem fs fc g recs) ics).
Proof. unfold cbytes. rewrite map_map. reflexivity. Qed.

Theorem foreign_rg_reads fs fc g recs rg :
  fshape_ok fs -> frg_pre fs fc g recs ->
  (forall j, col_inj fc g j = INone) ->
  Forall2 (fcc_of fs fc g recs) (index_from 0 (columns fs)) (rg_columns rg) ->
  rg_reads decompress fs rg (frg_bytes fs fc g recs) recs.
Proof.
  intros Hsh Hpre Hn Hccs. unfold frg_bytes. rewrite frg_bytes_items.
  apply read_row_group_good; [| |]; rewrite ?map_map; cbn [fitem ci_idx ci_es].
  - eapply Forall2_map_l_In; [|exact Hccs]. intros ic cc Hin Hcc.
    apply (fcc_reads fs fc g recs ic cc Hsh Hpre Hin (Hn _) Hcc).
  - apply index_from_fst.
  - destruct Hsh as (Htyok & _ & _). destruct Hpre as ((Hne & Hty) & _).
    rewrite <- (map_map fst (fun i => column_entries fs i recs)), index_from_fst,
      <- (shred_records_columns fs recs Hty).
    apply assemble_shred_records; assumption.
Qed.

Theorem foreign_rg_fails fs fc g j p inj c recs rg :
  fshape_ok fs -> frg_pre fs fc g recs -> fc_inject fc = Some (g, j, p, inj) ->
  nth_error (columns fs) j = Some c -> (p < length (fpages_es fs fc g j recs))%nat ->
  inj_effective c (fch fc g j) inj ->
  Forall2 (fcc_of fs fc g recs) (index_from 0 (columns fs)) (rg_columns rg) ->
  rg_fails decompress fs rg (frg_bytes fs fc g recs).
Proof.
  intros Hsh Hpre Hinj Hc Hp Heff Hccs.
  set (cols := columns fs) in *.
  destruct (nth_error_split _ _ Hc) as (l1 & l2 & Hcols & Hl1).
  assert (Hidx : index_from 0 cols = index_from 0 l1 ++ (j, c) :: index_from (S j) l2).
  { rewrite Hcols, index_from_app. cbn [index_from Nat.add]. rewrite Hl1. reflexivity. }
  unfold rg_fails, read_row_group, frg_bytes. cbv zeta. fold cols. apply fails_bind.
  rewrite Hidx in Hccs |- *. apply Forall2_app_inv_l in Hccs.
  destruct Hccs as (ccs1 & ccs2' & Hrel1 & Hrel2 & ->).
  inversion Hrel2 as [|ic ccb ics ccs2 [pos ->] _]; subst ic ics ccs2'.
  rewrite map_app, concat_app, frg_bytes_items. cbn [map concat fst snd]. rewrite app_assoc.
  apply fails_app, read_chunks_bad.
  - eapply Forall2_map_l_In; [|exact Hrel1]. intros [j' c'] cc Hin Hcc.
    destruct (index_from_In l1 0 j' c' Hin) as [_ Hnth]. rewrite Nat.sub_0_r in Hnth.
    assert (Hlt : (j' < length l1)%nat) by (apply nth_error_Some; congruence).
    apply (fcc_reads fs fc g recs (j', c') cc Hsh Hpre).
    + fold cols. rewrite Hidx. apply in_or_app. left. exact Hin.
    + cbn [fst]. apply (col_inj_other fc g j p inj g j' Hinj). right. lia.
    + exact Hcc.
  - destruct Hpre as [Hb Hcolsp]. destruct (Hcolsp j c Hc) as [Hcod Hsz].
    eexists _, j, c. split; [apply foreign_chunk_cm|].
    split; [exact (fcm_find fs fc g j c _ _ (proj1 (proj2 Hsh)) Hc)|].
    exact (foreign_chunk_fails fs fc g j p inj c recs pos Hsh Hb Hc Hinj Hcod Hsz Hp Heff).
Qed.

(** ** The foreign writer's file *)

Fixpoint all_from {A} (P : nat -> A -> Prop) (g : nat) (l : list A) : Prop :=
  match l with [] => True | x :: r => P g x /\ all_from P (S g) r end.

Lemma all_from_intro {A} (P : nat -> A -> Prop) (l : list A) : forall g,
  (forall k x, nth_error l k = Some x -> P (g + k)%nat x) -> all_from P g l.
Proof.
  induction l as [|x l IH]; intros g H; [exact I|]. cbn [all_from]. split.
  - rewrite <- (Nat.add_0_r g). apply H. reflexivity.
  - apply IH. intros k y Hk. replace (S g + k)%nat with (g + S k)%nat by lia. apply H. exact Hk.
Qed.

Lemma all_from_app {A} (P : nat -> A -> Prop) (a b : list A) : forall g,
  all_from P g (a ++ b) <-> all_from P g a /\ all_from P (g + length a) b.
Proof.
  induction a as [|x a IH]; intros g; cbn [app all_from length].
  - rewrite Nat.add_0_r. tauto.
  - rewrite IH. replace (S g + length a)%nat with (g + S (length a))%nat by lia. tauto.
Qed.

Lemma all_from_nth {A} (P : nat -> A -> Prop) (l : list A) : forall g k x,
  all_from P g l -> nth_error l k = Some x -> P (g + k)%nat x.
Proof.
  induction l as [|y l IH]; intros g k x Hl Hk; destruct k as [|k]; try discriminate Hk; destruct Hl as [Hy Hl].
  - injection Hk as <-. rewrite Nat.add_0_r. exact Hy.
  - rewrite Nat.add_succ_r. exact (IH (S g) k x Hl Hk).
Qed.

Lemma all_from_impl {A} (P Q : nat -> A -> Prop) (l : list A) : forall g,
  (forall k x, P k x -> Q k x) -> all_from P g l -> all_from Q g l.
Proof. induction l as [|x l IH]; intros g H; cbn [all_from]; [tauto|]. intros [H1 H2]. split; auto. Qed.

Definition foreign_footer (fs : list field) (fc : file_choice) (batches : list (list value)) : file_meta :=
  {| fm_version := 1;
     fm_schema := schema_of (columns fs);
     fm_num_rows := Z.of_nat (length (concat batches));
     fm_row_groups := snd (foreign_row_groups compress fs fc 0 batches 4);
     fm_key_value := if fc_key_value fc
                     then Some [ {| kv_key := [107]; kv_value := Some [118] |}; {| kv_key := [120]; kv_value := None |} ]
                     else None;
     fm_created_by := fc_created_by fc |}.

Lemma foreign_file_layout fs fc batches :
  foreign_file compress fs fc batches =
  magic ++ fst (foreign_row_groups compress fs fc 0 batches 4) ++ trailer (foreign_footer fs fc batches).
Proof.
  unfold foreign_file, foreign_footer, trailer.
  destruct (foreign_row_groups compress fs fc 0 batches 4) as [body rgs]. reflexivity.
Qed.

Definition frg_item (fs : list field) (fc : file_choice) (g : nat) (x : ritem) : Prop :=
  rg_num_rows (ri_rg x) = Z.of_nat (length (ri_recs x)) /\
  ri_bytes x = frg_bytes fs fc g (ri_recs x) /\
  Forall2 (fcc_of fs fc g (ri_recs x)) (index_from 0 (columns fs)) (rg_columns (ri_rg x)).

Lemma foreign_row_groups_spec fs fc : forall batches g pos,
  exists items, foreign_row_groups compress fs fc g batches pos = (rbytes items, map ri_rg items) /\
                map ri_recs items = batches /\ all_from (frg_item fs fc) g items.
Proof.
  induction batches as [|recs batches IH]; intros g pos.
  - exists []. repeat split.
  - cbn [foreign_row_groups].
    destruct (foreign_chunks_spec fs fc g recs (index_from 0 (columns fs)) pos) as [Hb Hccs].
    destruct (foreign_chunks compress fs fc g (index_from 0 (columns fs)) recs pos) as [[b ccs] pos'].
    cbn [fst snd] in Hb, Hccs.
    destruct (IH (S g) pos') as (items & Heq & Hrecs & Hall). rewrite Heq.
    eexists ({| ri_recs := recs; ri_rg := _; ri_bytes := b |} :: items).
    split; [reflexivity|]. split; [cbn [map ri_recs]; rewrite Hrecs; reflexivity|].
    cbn [all_from]. split; [|exact Hall].
    unfold frg_item. cbn [ri_rg ri_recs ri_bytes rg_num_rows rg_columns].
    split; [reflexivity|]. split; [exact Hb | exact Hccs].
Qed.

Lemma fcc_checks fs fc g recs ccs :
  NoDup (map c_path (columns fs)) ->
  Forall2 (fcc_of fs fc g recs) (index_from 0 (columns fs)) ccs -> chunks_checks (columns fs) ccs.
Proof.
  intros Hnd Hrel.
  split; apply forallb_forall; intros cc Hin;
    destruct (Forall2_In_r _ _ _ _ Hrel Hin) as ([j c] & Hic & [pos ->]); cbn [fst snd];
    rewrite foreign_chunk_cm; [|reflexivity].
  destruct (index_from_In _ 0 j c Hic) as [_ Hnth]. rewrite Nat.sub_0_r in Hnth.
  rewrite (fcm_find fs fc g j c _ _ Hnd Hnth). reflexivity.
Qed.

Definition choices_ok (fc : file_choice) : Prop := Forall (fun ch => codec_ok (cc_codec ch)) (fc_cols fc).

Lemma pick_choice_codec fc k : choices_ok fc -> codec_ok (cc_codec (pick_choice fc k)).
Proof.
  unfold choices_ok, pick_choice. intros H. destruct (fc_cols fc) as [|c0 l] eqn:E.
  - left. reflexivity.
  - rewrite Forall_forall in H. apply H. apply nth_In. apply Nat.mod_upper_bound. discriminate.
Qed.

Definition fsizes_ok (fs : list field) (fc : file_choice) (batches : list (list value)) : Prop :=
  (forall g recs j c, nth_error batches g = Some recs -> nth_error (columns fs) j = Some c ->
     Forall (fpage_sizes_ok (fbody_codec fc g j) c (fch fc g j)) (fpages_es fs fc g j recs)) /\
  file_meta_ok (foreign_footer fs fc batches) = true /\
  nlen (enc_file_meta (foreign_footer fs fc batches)) < 2 ^ 32.

Lemma foreign_file_items fs fc batches :
  fshape_ok fs -> Forall (fbatch_ok fs) batches -> choices_ok fc -> fsizes_ok fs fc batches ->
  exists items,
    foreign_file compress fs fc batches = magic ++ rbytes items ++ trailer (foreign_footer fs fc batches) /\
    fm_row_groups (foreign_footer fs fc batches) = map ri_rg items /\
    map ri_recs items = batches /\ footer_checks fs (foreign_footer fs fc batches) /\
    forall k x, nth_error items k = Some x -> frg_item fs fc k x /\ frg_pre fs fc k (ri_recs x).
Proof.
  intros Hsh Hb Hch (Hsz & _).
  destruct (foreign_row_groups_spec fs fc batches 0 4) as (items & Heq & Hrecs & Hall).
  assert (Hrgs : fm_row_groups (foreign_footer fs fc batches) = map ri_rg items).
  { cbn [foreign_footer fm_row_groups]. rewrite Heq. reflexivity. }
  exists items. split; [rewrite foreign_file_layout, Heq; reflexivity|]. split; [exact Hrgs|].
  split; [exact Hrecs|].
  pose proof (fun k x => all_from_nth _ items 0 k x Hall) as Hit. cbn [Nat.add] in Hit. split.
  { apply footer_checks_of. rewrite Hrgs. apply Forall_map, Forall_forall. intros x Hx.
    destruct (In_nth_error _ _ Hx) as [k Hk].
    exact (fcc_checks fs fc k (ri_recs x) _ (proj1 (proj2 Hsh)) (proj2 (proj2 (Hit k x Hk)))). }
  intros k x Hk. split; [exact (Hit k x Hk)|].
  assert (Hkb : nth_error batches k = Some (ri_recs x)) by (rewrite <- Hrecs; apply map_nth_error, Hk).
  split.
  - rewrite Forall_forall in Hb. exact (Hb _ (nth_error_In _ _ Hkb)).
  - intros j c Hc. split; [apply pick_choice_codec; exact Hch | exact (Hsz k _ j c Hkb Hc)].
Qed.

Lemma fitem_reads fs fc g x :
  fshape_ok fs -> frg_item fs fc g x -> frg_pre fs fc g (ri_recs x) -> (forall j, col_inj fc g j = INone) ->
  ritem_ok decompress fs x.
Proof.
  intros Hsh (Hnr & Hb & Hccs) Hpre Hn. split; [exact Hnr|]. rewrite Hb.
  exact (foreign_rg_reads fs fc g (ri_recs x) (ri_rg x) Hsh Hpre Hn Hccs).
Qed.

(** ** C04: every legal physical encoding of the same content is read back exactly *)
Theorem foreign_read_ok_src fs fc batches sched :
  fshape_ok fs -> Forall (fbatch_ok fs) batches -> choices_ok fc -> fc_inject fc = None ->
  fsizes_ok fs fc batches ->
  read_all_src decompress fs (mk_src (foreign_file compress fs fc batches) sched None) =
  {| o_open_ok := true;
     o_rows := Z.of_nat (length (concat batches));
     o_nexts := N.of_nat (length (concat batches));
     o_err := false; o_panic := false;
     o_recs := concat batches |}.
Proof.
  intros Hsh Hb Hch Hinj Hsizes.
  destruct (foreign_file_items fs fc batches Hsh Hb Hch Hsizes) as (items & -> & Hrgs & <- & Hchk & Hitems).
  destruct Hsizes as (_ & Hfm & Hlen).
  apply (read_all_good decompress fs _ items sched Hfm Hlen Hchk Hrgs); [reflexivity|].
  apply Forall_forall. intros x Hx. destruct (In_nth_error _ _ Hx) as [k Hk].
  destruct (Hitems k x Hk) as [Hit Hpre]. apply (fitem_reads fs fc k x Hsh Hit Hpre).
  intros j. unfold col_inj. rewrite Hinj. reflexivity.
Qed.

Theorem foreign_read_ok fs fc batches :
  fshape_ok fs -> Forall (fbatch_ok fs) batches -> choices_ok fc -> fc_inject fc = None ->
  fsizes_ok fs fc batches ->
  read_all decompress fs (foreign_file compress fs fc batches) =
  {| o_open_ok := true;
     o_rows := Z.of_nat (length (concat batches));
     o_nexts := N.of_nat (length (concat batches));
     o_err := false; o_panic := false;
     o_recs := concat batches |}.
Proof. intros. unfold read_all. apply foreign_read_ok_src; assumption. Qed.

(** ** C18: one unsupported feature — the reader delivers the row groups
    before it, then reports an error, and never panics *)

Definition injection_effective (fs : list field) (fc : file_choice) (batches : list (list value))
           (g j p : nat) (inj : injection) : Prop :=
  exists recs c, nth_error batches g = Some recs /\ nth_error (columns fs) j = Some c /\
                 (p < length (fpages_es fs fc g j recs))%nat /\ inj_effective c (fch fc g j) inj.

Theorem unsupported_refused_src fs fc batches g j p inj sched :
  fshape_ok fs -> Forall (fbatch_ok fs) batches -> choices_ok fc ->
  fc_inject fc = Some (g, j, p, inj) -> injection_effective fs fc batches g j p inj ->
  fsizes_ok fs fc batches ->
  let o := read_all_src decompress fs (mk_src (foreign_file compress fs fc batches) sched None) in
  o_panic o = false /\ (o_open_ok o = false \/ o_err o = true) /\ o_recs o = concat (firstn g batches) /\
  (g = 0%nat -> o_open_ok o = false) /\ (g <> 0%nat -> o_open_ok o = true /\ o_err o = true).
Proof.
  intros Hsh Hb Hch Hinj (recs & c & Hg & Hc & Hp & Heff) Hsizes.
  destruct (foreign_file_items fs fc batches Hsh Hb Hch Hsizes) as (items & -> & Hrgs & <- & Hchk & Hitems).
  destruct Hsizes as (_ & Hfm & Hlen).
  (* the row group that carries the injection, those before it, those after it *)
  rewrite nth_error_map in Hg.
  destruct (nth_error items g) as [xg|] eqn:Hxg; [injection Hg as Hxrecs | discriminate Hg].
  destruct (nth_error_split _ _ Hxg) as (items1 & items2 & -> & Hlen1).
  destruct (Hitems g xg Hxg) as [(_ & Hbg & Hccs) Hpreg]. rewrite Hxrecs in Hbg, Hccs, Hpreg.
  rewrite (map_app ri_rg) in Hrgs. unfold rbytes. rewrite (map_app ri_bytes), concat_app. cbn [map concat].
  rewrite firstn_map, <- Hlen1, firstn_app_exact, length_zero_iff_nil.
  apply (read_all_bad decompress fs _ items1 (ri_rg xg) (ri_bytes xg) (map ri_rg items2) (rbytes items2) sched
           Hfm Hlen Hchk Hrgs).
  - unfold rrecs. cbn [foreign_footer fm_num_rows]. rewrite map_app, concat_app, !app_length. cbn [map concat].
    rewrite Hxrecs, app_length. destruct Hpreg as [[Hne _] _]. destruct recs; [congruence | cbn [length]; lia].
  - apply Forall_forall. intros x Hx. destruct (In_nth_error _ _ Hx) as [k Hk].
    assert (Hklt : (k < g)%nat) by (rewrite <- Hlen1; apply nth_error_Some; congruence).
    destruct (Hitems k x) as [Hit Hpre]; [rewrite nth_error_app1 by lia; exact Hk|].
    apply (fitem_reads fs fc k x Hsh Hit Hpre).
    intros j'. apply (col_inj_other fc g j p inj k j' Hinj). left. lia.
  - rewrite Hbg. exact (foreign_rg_fails fs fc g j p inj c recs (ri_rg xg) Hsh Hpreg Hinj Hc Hp Heff Hccs).
Qed.

Theorem unsupported_refused fs fc batches g j p inj :
  fshape_ok fs -> Forall (fbatch_ok fs) batches -> choices_ok fc ->
  fc_inject fc = Some (g, j, p, inj) -> injection_effective fs fc batches g j p inj ->
  fsizes_ok fs fc batches ->
  let o := read_all decompress fs (foreign_file compress fs fc batches) in
  o_panic o = false /\ (o_open_ok o = false \/ o_err o = true) /\ o_recs o = concat (firstn g batches) /\
  (g = 0%nat -> o_open_ok o = false) /\ (g <> 0%nat -> o_open_ok o = true /\ o_err o = true).
Proof. intros H1 H2 H3 H4 H5 H6. exact (unsupported_refused_src fs fc batches g j p inj [] H1 H2 H3 H4 H5 H6). Qed.

(** ** The hypotheses as boolean checks *)

Definition fshape_okb (fs : list field) : bool :=
  ty_okb (TGroup fs) && nodupb (map c_path (columns fs))
  && forallb (fun c => (max_def c <=? 15) && (max_rep c <=? 15)) (columns fs).

Lemma fshape_okb_sound fs : fshape_okb fs = true -> fshape_ok fs.
Proof.
  intros [[H1 H2]%andb_prop H3]%andb_prop. split; [exact H1|]. split; [exact (nodupb_sound _ H2)|].
  revert H3. apply forallb_impl. intros c. lia.
Qed.

Definition fbatch_okb (fs : list field) (recs : list value) : bool :=
  negb (Nat.eqb (length recs) 0) && forallb (has_tyb (TGroup fs)) recs.

Lemma fbatch_okb_sound fs recs : fbatch_okb fs recs = true -> fbatch_ok fs recs.
Proof.
  intros [H1 H2]%andb_prop. split; [intros -> ; discriminate H1 | exact (forallb_Forall _ _ H2)].
Qed.

Definition choices_okb (fc : file_choice) : bool := forallb (fun ch => codec_okb (cc_codec ch)) (fc_cols fc).

Lemma choices_okb_sound fc : choices_okb fc = true -> choices_ok fc.
Proof. apply forallb_impl. intros ch. apply codec_okb_iff. Qed.

Definition fpage_sizes_okb (codec : Z) (c : col) (ch : col_choice) (es : list entry) : bool :=
  (nlen es <? 2 ^ 31) && (nlen (foreign_payload c ch es) <? 2 ^ 31)
  && (nlen (compress codec (foreign_payload c ch es)) <? 2 ^ 31).

Definition fsizes_okb (fs : list field) (fc : file_choice) (batches : list (list value)) : bool :=
  forallb (fun grecs : nat * list value =>
             forallb (fun jc : nat * col =>
                        forallb (fpage_sizes_okb (fbody_codec fc (fst grecs) (fst jc)) (snd jc)
                                                 (fch fc (fst grecs) (fst jc)))
                                (fpages_es fs fc (fst grecs) (fst jc) (snd grecs)))
                     (index_from 0 (columns fs)))
          (index_from 0 batches)
  && file_meta_ok (foreign_footer fs fc batches)
  && (nlen (enc_file_meta (foreign_footer fs fc batches)) <? 2 ^ 32).

Lemma fsizes_okb_sound fs fc batches : fsizes_okb fs fc batches = true -> fsizes_ok fs fc batches.
Proof.
  intros [[H1 H2]%andb_prop H3]%andb_prop. split; [|split; [exact H2 | lia]].
  intros g recs j c Hg Hc. rewrite forallb_forall in H1.
  specialize (H1 (g, recs) (nth_error_In _ _ (index_from_nth _ 0%nat g recs Hg))). rewrite forallb_forall in H1.
  specialize (H1 (j, c) (nth_error_In _ _ (index_from_nth _ 0%nat j c Hc))). cbn [fst snd] in H1.
  revert H1. apply forallb_impl. unfold fpage_sizes_okb, fpage_sizes_ok. lia.
Qed.

Lemma fhyps_okb_sound fs fc batches :
  fshape_okb fs = true -> forallb (fbatch_okb fs) batches = true -> choices_okb fc = true ->
  fsizes_okb fs fc batches = true ->
  fshape_ok fs /\ Forall (fbatch_ok fs) batches /\ choices_ok fc /\ fsizes_ok fs fc batches.
Proof.
  intros H1 H2 H3 H4. split; [exact (fshape_okb_sound fs H1)|].
  split; [exact (forallb_impl _ _ _ (fbatch_okb_sound fs) H2)|].
  split; [exact (choices_okb_sound fc H3) | exact (fsizes_okb_sound fs fc batches H4)].
Qed.

Corollary foreign_read_ok_checked fs fc batches :
  fshape_okb fs = true -> forallb (fbatch_okb fs) batches = true -> choices_okb fc = true ->
  fc_inject fc = None -> fsizes_okb fs fc batches = true ->
  read_all decompress fs (foreign_file compress fs fc batches) =
  {| o_open_ok := true;
     o_rows := Z.of_nat (length (concat batches));
     o_nexts := N.of_nat (length (concat batches));
     o_err := false; o_panic := false;
     o_recs := concat batches |}.
Proof.
  intros H1 H2 H3 H4 H5. destruct (fhyps_okb_sound fs fc batches H1 H2 H3 H5) as (A & B & C & D).
  exact (foreign_read_ok fs fc batches A B C H4 D).
Qed.

Definition inj_effectiveb (c : col) (ch : col_choice) (inj : injection) : bool :=
  match inj with
  | INone => false
  | IDictPage => nlen (compress (cc_codec ch) [0; 0; 0; 0]) <? 2 ^ 31
  | IIndexPage | IDataPageV2 => true
  | IEncoding e => negb (Z.eqb e ENC_PLAIN) && i32_ok e
  | IDefBitPacked => 0 <? max_def c
  | IRepBitPacked => 0 <? max_rep c
  | ICodec z => negb (codec_okb z)
  end.

Definition injection_effectiveb (fs : list field) (fc : file_choice) (batches : list (list value))
           (g j p : nat) (inj : injection) : bool :=
  match nth_error batches g, nth_error (columns fs) j with
  | Some recs, Some c => Nat.ltb p (length (fpages_es fs fc g j recs)) && inj_effectiveb c (fch fc g j) inj
  | _, _ => false
  end.

Lemma inj_effectiveb_sound c ch inj : inj_effectiveb c ch inj = true -> inj_effective c ch inj.
Proof.
  destruct inj as [| | | |e| | |z]; cbn [inj_effectiveb inj_effective inj_rejects]; intros H;
    [discriminate H | apply N.ltb_lt, H | exact I | exact I | | apply N.ltb_lt, H | apply N.ltb_lt, H | ].
  - apply andb_prop in H. destruct H as [H1%negb_true_iff%Z.eqb_neq H2]. split; assumption.
  - intros Hz%codec_okb_iff. rewrite Hz in H. discriminate.
Qed.

Lemma injection_effectiveb_sound fs fc batches g j p inj :
  injection_effectiveb fs fc batches g j p inj = true -> injection_effective fs fc batches g j p inj.
Proof.
  unfold injection_effectiveb, injection_effective. intros H.
  destruct (nth_error batches g) as [recs|]; [|discriminate].
  destruct (nth_error (columns fs) j) as [c|]; [|discriminate].
  apply andb_prop in H. destruct H as [H1%Nat.ltb_lt H2%inj_effectiveb_sound]. exists recs, c. auto.
Qed.

Corollary unsupported_refused_checked fs fc batches g j p inj :
  fshape_okb fs = true -> forallb (fbatch_okb fs) batches = true -> choices_okb fc = true ->
  fc_inject fc = Some (g, j, p, inj) -> injection_effectiveb fs fc batches g j p inj = true ->
  fsizes_okb fs fc batches = true ->
  let o := read_all decompress fs (foreign_file compress fs fc batches) in
  o_panic o = false /\ (o_open_ok o = false \/ o_err o = true) /\ o_recs o = concat (firstn g batches) /\
  (g = 0%nat -> o_open_ok o = false) /\ (g <> 0%nat -> o_open_ok o = true /\ o_err o = true).
Proof.
  intros H1 H2 H3 H4 H5 H6. destruct (fhyps_okb_sound fs fc batches H1 H2 H3 H6) as (A & B & C & D).
  exact (unsupported_refused fs fc batches g j p inj A B C H4 (injection_effectiveb_sound _ _ _ _ _ _ _ H5) D).
Qed.

End WithCodec.

(** ** The hypotheses are satisfiable: the shape of [ReaderProofs2.Example]
    (one optional int32, one repeated bool, one required string column), two
    row groups, column choices with both run kinds, page sizes [1;2] and
    [2;1], padding values 1 and 7, every optional footer/header field in both
    states; identity codec *)
Module ForeignExample.
Import Example.

Definition ch1 : col_choice :=
  {| cc_codec := CODEC_UNCOMPRESSED; cc_page_sizes := [1; 2]%nat; cc_rep_choices := [3; 0; 4; 1];
     cc_def_choices := [1; 2; 0]; cc_pad := 1; cc_stats := 2; cc_crc := true;
     cc_file_offset_kind := 2; cc_encoding_stats := true |}.
Definition ch2 : col_choice :=
  {| cc_codec := CODEC_UNCOMPRESSED; cc_page_sizes := [2; 1]%nat; cc_rep_choices := [0; 2; 1];
     cc_def_choices := [4; 1]; cc_pad := 7; cc_stats := 1; cc_crc := false;
     cc_file_offset_kind := 0; cc_encoding_stats := false |}.
Definition fc_with (i : option (nat * nat * nat * injection)) : file_choice :=
  {| fc_cols := [ch1; ch2]; fc_created_by := Some [65]; fc_key_value := true;
     fc_byte_size_uncompressed := true; fc_inject := i |}.
Definition fc0 : file_choice := fc_with None.
Definition bs1 : list (list value) := [[r1; r2; r3]; [r3; r1; r1; r2]].

(** both run kinds occur, and a padded tail *)
Example segment_instance :
  segment 14 2 [2; 1; 0; 1] 1 [0; 0; 0; 0; 1; 1; 1; 2; 0; 0; 1; 2; 2] =
  [RRle 2 0; RBp [[0; 0; 1; 1; 1; 2; 0; 0]]; RRle 1 1; RBp [[2; 2; 1; 1; 1; 1; 1; 1]]].
Proof. vm_compute. reflexivity. Qed.

Example hyps_hold :
  fshape_okb fs0 = true /\ forallb (fbatch_okb fs0) bs1 = true /\ choices_okb fc0 = true /\
  fsizes_okb cid fs0 fc0 bs1 = true.
Proof. vm_compute. repeat split. Qed.

Example fsizes_instance : fsizes_ok cid fs0 fc0 bs1.
Proof. exact (fsizes_okb_sound cid fs0 fc0 bs1 (proj2 (proj2 (proj2 hyps_hold)))). Qed.

Example read_eval :
  read_all did fs0 (foreign_file cid fs0 fc0 bs1) =
  {| o_open_ok := true; o_rows := 7; o_nexts := 7; o_err := false; o_panic := false; o_recs := concat bs1 |}.
Proof.
  destruct hyps_hold as (H1 & H2 & H3 & H4).
  exact (foreign_read_ok_checked cid did (fun c x _ => eq_refl) (fun x => eq_refl) fs0 fc0 bs1 H1 H2 H3 eq_refl H4).
Qed.

Example read_instance :
  o_recs (read_all did fs0 (foreign_file cid fs0 fc0 bs1)) = concat bs1.
Proof. rewrite read_eval. reflexivity. Qed.

Definition injections : list injection :=
  [IDictPage; IIndexPage; IDataPageV2; IEncoding 2; IDefBitPacked; IRepBitPacked; ICodec 4].

Example inj_hyps_hold :
  forallb (fun i => injection_effectiveb cid fs0 (fc_with (Some (1, 1, 1, i)%nat)) bs1 1 1 1 i
                    && fsizes_okb cid fs0 (fc_with (Some (1, 1, 1, i)%nat)) bs1) injections = true.
Proof. vm_compute. reflexivity. Qed.

Lemma refused_second i :
  In i injections ->
  let o := read_all did fs0 (foreign_file cid fs0 (fc_with (Some (1, 1, 1, i)%nat)) bs1) in
  o_open_ok o = true /\ o_err o = true /\ o_panic o = false /\ o_recs o = [r1; r2; r3].
Proof.
  intros Hi. destruct hyps_hold as (H1 & H2 & H3 & _).
  destruct (andb_prop _ _ (proj1 (forallb_forall _ _) inj_hyps_hold i Hi)) as [He Hs].
  destruct (unsupported_refused_checked cid did (fun c x _ => eq_refl) (fun x => eq_refl) fs0
              (fc_with (Some (1, 1, 1, i)%nat)) bs1 1 1 1 i H1 H2 H3 eq_refl He Hs)
    as (Hp & _ & Hr & _ & Ho).
  destruct Ho as [Ho Herr]; [discriminate|]. cbv zeta. auto.
Qed.

Example refused_instance :
  let o := read_all did fs0 (foreign_file cid fs0 (fc_with (Some (1, 1, 1, IDataPageV2)%nat)) bs1) in
  o_panic o = false /\ o_err o = true /\ o_recs o = [r1; r2; r3].
Proof.
  destruct (refused_second IDataPageV2) as (_ & He & Hp & Hr); [cbn; auto|]. cbv zeta. auto.
Qed.

(** in the second row group from [refused_second]; in the first, where the
    constructor fails, by evaluation *)
Example refused_eval :
  map (fun i => let o := read_all did fs0 (foreign_file cid fs0 (fc_with (Some (1, 1, 1, i)%nat)) bs1) in
                (o_open_ok o, o_err o, o_panic o, o_recs o)) injections =
  repeat (true, true, false, [r1; r2; r3]) 7 /\
  map (fun i => let o := read_all did fs0 (foreign_file cid fs0 (fc_with (Some (0, 1, 0, i)%nat)) bs1) in
                (o_open_ok o, o_err o, o_panic o, o_recs o)) injections =
  repeat (false, true, false, []) 7.
Proof.
  split; [|vm_compute; reflexivity].
  rewrite (map_ext_in _ (fun _ => (true, true, false, [r1; r2; r3])) injections); [reflexivity|].
  intros i Hi. destruct (refused_second i Hi) as (Ho & He & Hp & Hr). cbv zeta in *.
  rewrite Ho, He, Hp, Hr. reflexivity.
Qed.

(** the effectiveness conditions are needed: BIT_PACKED level encodings on a
    column without such levels are never looked at *)
Example ineffective_eval :
  o_recs (read_all did fs0 (foreign_file cid fs0 (fc_with (Some (0, 2, 0, IDefBitPacked)%nat)) bs1)) = concat bs1 /\
  o_recs (read_all did fs0 (foreign_file cid fs0 (fc_with (Some (0, 0, 0, IRepBitPacked)%nat)) bs1)) = concat bs1.
Proof. vm_compute. split; reflexivity. Qed.
End ForeignExample.

Print Assumptions segment_ok.
Print Assumptions split_pages_ok.
Print Assumptions foreign_chunk_fails.
Print Assumptions foreign_read_ok.
Print Assumptions foreign_read_ok_checked.
Print Assumptions unsupported_refused.
Print Assumptions unsupported_refused_checked.
Print Assumptions ForeignExample.read_instance.
Print Assumptions ForeignExample.refused_instance.
